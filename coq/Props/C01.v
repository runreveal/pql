(** * C01 — scalar expressions keep their meaning when translated to SQL (partial). *)
From PQL Require Import Model.Compile Model.Trans Spec.PqlSem Proofs.TableFacts Proofs.WriterFacts Proofs.MeaningFacts.
From Coq Require Import String.
Local Open Scope list_scope.
Local Open Scope nat_scope.
Local Notation length := List.length (only parsing).

(** explicit parentheses in the source only group: the writer emits the same pieces for an
    expression and for the same expression with any of its parentheses removed at the top *)
Theorem C01_parens_transparent : forall c w e, wx c w (strip_parens e) = wx c w e.
Proof. exact wx_strip_parens. Qed.
Print Assumptions C01_parens_transparent.

Theorem C01_paren_one_level : forall c w l x r, wx c w (EParen l x r) = wx c w x.
Proof. exact wx_paren. Qed.
Print Assumptions C01_paren_one_level.

(** PQL precedence is the documented one: or < and < comparisons (with in) < + - < * / % *)
Theorem C01_precedence_table : forall k, op_prec k = documented_level k.
Proof. exact op_prec_spec. Qed.
Print Assumptions C01_precedence_table.

(** every operator the parser can build has a SQL rendering (no fallback text) *)
Theorem C01_operators_rendered : forall k, (0 <= op_prec k)%Z -> binop_handled k = true.
Proof. exact binop_sql_total. Qed.
Print Assumptions C01_operators_rendered.

(** the documented built-ins have the documented arities, and a rewrite whose output is not a
    single SQL operand is parenthesised when used as an operand *)
Theorem C01_builtins_documented :
  forallb (fun na => match known_func (fst na) with
                     | Some (w, _) => arity_rule_eqb (writer_arity w) (snd na)
                     | None => false end) documented_builtins = true
  /\ length known_funcs = length documented_builtins.
Proof. exact builtin_arities_documented. Qed.
Print Assumptions C01_builtins_documented.

Theorem C01_rewrites_parenthesised :
  forallb (fun nf => match snd nf with (w, np) => np || template_is_operand (writer_template w) end) known_funcs = true.
Proof. exact needs_parens_sound. Qed.
Print Assumptions C01_rewrites_parenthesised.

(** Meaning: the SQL tree the writer intends for an expression evaluates, on every row (NULLs
    included), in every environment (join sides, groups) and for every interpretation of the
    pass-through functions, to the value of the PQL expression read with PQL's own grouping:
    ==/!= never NULL, =~/!~ through lower(), and/or Kleene, in, indexing, signs, the documented
    built-ins rewritten, everything else passed through by name with its arguments. *)
Theorem C01_meaning : forall F is_bound jm,
  is_agg F w_coalesce = false ->
  is_agg F w_lower = false /\ is_agg F w_LOWER = false /\ is_agg F w_UPPER = false ->
  is_agg F w_count = true ->
  forallb (fun n => negb (is_agg F n)) [p_not; p_isnull; p_isnotnull; p_iff; p_iif; p_strcat; p_tolower; p_toupper; p_nowf; p_countif] = true ->
  forall x e, seval F e (trans is_bound jm x) = peval F is_bound jm e x.
Proof. intros F is_bound jm Hcoalesce Hlower Hcount _. exact (trans_meaning F is_bound jm Hcoalesce Hlower Hcount). Qed.
Print Assumptions C01_meaning.

(** ** the printed text re-reads as the intended tree (token level) *)
From PQL Require Import Spec.SqlRead Proofs.ReadBack.

(** For every expression the parser accepts and the writer prints (no parameters or lets in
    scope, no pass-through function called NOT or CASE -- known finding F1), the printed pieces,
    viewed as SQL tokens ([ptoks]: template text through the dialect's lexer, identifiers, strings
    and numbers as single tokens), are read by the reference reader of coq/Spec/SqlParse.v -- the
    SQL dialect's own precedence, OR < AND < NOT < comparison/IS NULL/IN < || < + - < * / % <
    sign < x[i] -- as exactly [trans e], the tree whose value C01_meaning proves equal to the PQL
    expression's, with no token left over; for every sufficiently large reader fuel.  By
    induction over the writer: every operand position is written closed (atom, signed operand or
    parenthesised), every template (coalesce, CASE WHEN, IS NULL, NOT, count() FILTER, ||, IN,
    LOWER/UPPER, x[i]) re-reads as its tree. *)
Theorem C01_printed_expression_rereads : forall c, c_scope c = [] -> forall srclen f ts e rest ps,
  p_expr srclen f ts = (Some e, rest, []) -> names_ok e -> wexpr c e = Ok ps ->
  exists toks, ptoks ps = Some toks /\
    Conv (fun fuel => sx fuel 0 toks) (trans (fun _ => false) (mode_eqb (c_mode c) ModeJoin) e, []).
Proof. exact printed_expression_rereads. Qed.
Print Assumptions C01_printed_expression_rereads.

(** the same in every operand position: as a full expression, as a closed operand of an
    operator, as the base of an index or operand of a sign *)
Theorem C01_operand_shapes : forall c, c_scope c = [] -> forall e, wfr e -> forall w ps, wx c w e = Ok ps ->
  exists ts, ptoks ps = Some ts /\ Shape w ts (trans (fun _ => false) (mode_eqb (c_mode c) ModeJoin) e).
Proof. exact wx_reads_empty. Qed.
Print Assumptions C01_operand_shapes.

(** ** the printed expression, byte level *)
From PQL Require Import Proofs.SqlGlue Proofs.SqlGlueWriter Proofs.SqlGlueProg.

(** For every expression the parser can build whose number literals and pass-through function names
    are spelled as the scanner spells them ([lexok]; holds of every scanned source), in any scope
    whose bound values were themselves printed this way, the pieces printed are glue-safe - no
    comment opener, two-character operator, doubled quote or fused word/number forms across or
    inside them - begin with a character that can follow any operator or keyword (for an operand:
    not a sign) and end with one after which any operator, comma, bracket or keyword may follow.
    This is what makes the byte-level reading of every larger text (C05_compiled_bytes_lex) follow
    from the token-level one (C01_printed_expression_rereads). *)
Theorem C01_printed_expression_bytes : forall c, scope_glued (c_scope c) -> forall e, wfr e -> lexok e ->
  forall w ps, wx c w e = Ok ps ->
  pieces_glue ps None = true /\
  starts_in (match w with WOperand => is_start_op | _ => is_start end) (render ps) /\ ends_in is_end (render ps).
Proof. exact wx_glue. Qed.
Print Assumptions C01_printed_expression_bytes.
