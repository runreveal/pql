(** * Precedence levels: why the trees built by the two Pratt loops are trees of the grammar (C07).
    What each branch of [p_trail] and [p_higher] in ParserSound.v needs about operator levels is
    arithmetic, proved here without looking at the parser. *)
From PQL Require Import Spec.Grammar.
From PQL Require Proofs.TableFacts.
From Coq Require Import Lia ZArith.
Local Open Scope list_scope.
Local Open Scope Z_scope.

Lemma inner_primary e : is_inner e = true -> is_primary e = true.
Proof. destruct e; cbn [is_inner is_primary]; congruence. Qed.
Lemma primary_operand e : is_primary e = true -> is_operand e = true.
Proof. destruct e; cbn [is_primary is_operand is_inner]; congruence. Qed.
Lemma operand_levels e : is_operand e = true -> hi e = above_all /\ lo e = above_all.
Proof. destruct e; cbn [is_operand is_primary is_inner hi lo]; try discriminate; split; reflexivity. Qed.

(** what a loop running at level [m] needs of the operator it is about to take after [x], and what
    it guarantees of the token it stops at *)
Definition takeok (x : expr) (m : Z) (ts : list token) : Prop :=
  match ts with t :: _ => m <= op_prec (tkind t) -> op_prec (tkind t) <= hi x | [] => True end.
Definition stopT (m : Z) (rest : list token) : Prop :=
  match rest with t :: _ => op_prec (tkind t) < m | [] => True end.

Lemma takeok_top x m ts : hi x = above_all -> takeok x m ts.
Proof. intros H. destruct ts as [|t r]; [exact I|]. cbn [takeok]. intros _. rewrite H. pose proof (TableFacts.op_prec_lt_above (tkind t)). lia. Qed.

(** A loop at level [m] is handed [x], with [ts] to come, and hands back [e], with [rest] to come:
    [e] is grammatical if [x] was, no looser on its left spine than [x] and [m], and the loop stopped
    for a reason. *)
Definition climbs (x : expr) (m : Z) (ts : list token) (e : expr) (rest : list token) : Prop :=
  gexpr x = true -> takeok x m ts -> 0 <= m -> gexpr e = true /\ Z.min (lo x) m <= lo e /\ stopT m rest.

Lemma climbs_stop x m ts : (0 <= m -> stopT m ts) -> climbs x m ts x ts.
Proof. intros H Hg _ Hm. split; [exact Hg|]. split; [lia|exact (H Hm)]. Qed.

(** [p_higher]: one more round at the same level, on a tree that stopped at this level *)
Lemma climbs_trans x m ts y r e rest : climbs x m ts y r -> climbs y m r e rest -> climbs x m ts e rest.
Proof.
  intros H1 H2 Hg Htk Hm. destruct (H1 Hg Htk Hm) as (Hgy & Hlo & Hst).
  assert (Htk' : takeok y m r). { destruct r as [|t r']; [exact I|]. cbn [takeok stopT] in *. intros Hc. lia. }
  destruct (H2 Hgy Htk' Hm) as (Hge & Hlo' & Hst'). split; [exact Hge|]. split; [lia|exact Hst'].
Qed.

(** [p_trail] takes `in (vs)`: the test accepts every operator that follows *)
Lemma climbs_in x m op1 r s1 s2 vs s3 r' e rest : tkind op1 = KIn -> m <= op_prec (tkind op1) -> forallb gexpr vs = true ->
  climbs (EIn x s1 s2 vs s3) m r' e rest -> climbs x m (op1 :: r) e rest.
Proof.
  intros Hk Hm1 Hvs H Hg Htk Hm. cbn [takeok] in Htk. specialize (Htk Hm1). rewrite Hk in *.
  assert (Hgin : gexpr (EIn x s1 s2 vs s3) = true). { cbn [gexpr]. rewrite Hg, Hvs. apply Z.leb_le. exact Htk. }
  destruct (H Hgin (takeok_top (EIn x s1 s2 vs s3) m r' eq_refl) Hm) as (Hge & Hlo & Hst). cbn [lo] in Hlo. split; [exact Hge|]. split; [lia|exact Hst].
Qed.

(** [p_trail] takes a binary operator: its right operand [y] came back from [p_higher], one level
    up, as [y1]; what [p_higher] stopped at is what the new tree may be followed by *)
Lemma climbs_bin x m op1 r sp y r1 y1 r2 e rest : 0 <= op_prec (tkind op1) -> m <= op_prec (tkind op1) ->
  gexpr y = true -> is_operand y = true -> climbs y (op_prec (tkind op1) + 1) r1 y1 r2 ->
  climbs (EBin x sp (tkind op1) y1) m r2 e rest -> climbs x m (op1 :: r) e rest.
Proof.
  intros Hp0 Hpm Hgy Hcy Hh Ht Hg Htk Hm. cbn [takeok] in Htk. specialize (Htk Hpm).
  destruct (operand_levels _ Hcy) as [Hhi Hlo].
  destruct (Hh Hgy (takeok_top _ _ _ Hhi) ltac:(lia)) as (Hgy1 & Hloy & HstH).
  pose proof (TableFacts.op_prec_lt_above (tkind op1)) as Hlt.
  assert (Hgb : gexpr (EBin x sp (tkind op1) y1) = true).
  { cbn [gexpr]. rewrite Hg, Hgy1. apply andb_true_intro. split; [apply Z.leb_le; exact Htk|apply Z.ltb_lt; lia]. }
  assert (Htk2 : takeok (EBin x sp (tkind op1) y1) m r2).
  { destruct r2 as [|t2 r2']; [exact I|]. cbn [takeok stopT hi] in *. intros _. lia. }
  destruct (Ht Hgb Htk2 Hm) as (Hge & Hloe & Hst). cbn [lo] in Hloe. split; [exact Hge|]. split; [lia|exact Hst].
Qed.
