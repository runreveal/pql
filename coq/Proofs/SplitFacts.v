(** * Facts about SplitStatements: the pieces joined with ';' give back the source; one more
    piece than semicolon tokens. *)
From PQL Require Import Model.Lexer Proofs.LexerFacts.
From Coq Require Import Lia.
Local Open Scope nat_scope.

Definition item_at (s : str) (t : token) : Prop :=
  tstart t <= length s /\
  lex1 (skipn (tstart t) s) = Tok (tkind t) (tvalue t) (tend t - tstart t) /\ tstart t < tend t.

Theorem scan_at_items : forall off l s, l = skipn off s -> off <= length s ->
  forall t, In t (scan_at off l) -> item_at s t.
Proof.
  apply (scan_at_ind (fun off l ts => forall s, l = skipn off s -> off <= length s -> forall t, In t ts -> item_at s t)).
  - intros off s _ _ t [].
  - intros off l k v n ts _ Hlex Hn IH s El Hoff t [<-|Hin].
    + unfold item_at; cbn [tstart tend tkind tvalue]. repeat split; try lia.
      rewrite <- El, Hlex. f_equal. lia.
    + assert (Hlen : length l = length s - off) by (rewrite El; apply skipn_length).
      apply (IH s); [rewrite El; apply skipn_skipn_add|lia|exact Hin].
  - intros off l n ts _ _ Hn IH s El Hoff t Hin.
    assert (Hlen : length l = length s - off) by (rewrite El; apply skipn_length).
    apply (IH s); [rewrite El; apply skipn_skipn_add|lia|exact Hin].
Qed.

Theorem scan_items s t : In t (scan s) -> item_at s t.
Proof. apply (scan_at_items 0 s s); [reflexivity|lia]. Qed.

Lemma item_at_bounds s t : item_at s t -> skipn (tstart t) s <> [] /\ tend t <= length s.
Proof.
  intros (Hoff & Hlex & Hlt). assert (Hne : skipn (tstart t) s <> []) by (intros E; rewrite E in Hlex; discriminate Hlex).
  pose proof (lex1_progress _ Hne) as Hp. rewrite Hlex, skipn_length in Hp. cbn [item_len] in Hp. split; [exact Hne|lia].
Qed.

Lemma lex1_semi l v n : lex1 l = Tok KSemi v n -> exists r, l = 59%N :: r /\ n = 1 /\ v = [].
Proof.
  destruct l as [|b0 r0]; [discriminate|]. generalize (lex1_viewP (b0 :: r0) ltac:(discriminate)).
  generalize (lex1 (b0 :: r0)). intros i V.
  destruct V as [l _ Hs|b r Hb|b r Hb|q r Hq|r|r|b c k r Hin|b k r Hin Hr|l _ Hs Hb]; try discriminate.
  - (* no sub-scanner returns a semicolon; in particular no keyword is one *)
    destruct (lex_ident_tok b r) as (k & v' & m & -> & Hk). intros [= -> _ _]. cbn in Hk. intuition discriminate.
  - destruct (lex_number_tok b r) as (k & v' & m & -> & Hk). intros [= -> _ _]. cbn in Hk. intuition discriminate.
  - destruct (lex_string_tok q r) as (k & v' & m & -> & Hk). intros [= -> _ _]. cbn in Hk. intuition discriminate.
  - destruct (lex_quoted_tok 96%N r) as (k & v' & m & -> & Hk). intros [= -> _ _]. cbn in Hk. intuition discriminate.
  - intros [= -> _]. cbn [op2 In] in Hin. intuition discriminate.
  - intros [= -> <- <-]. cbn [op1 In] in Hin. exists r. split; [|split; reflexivity].
    repeat destruct Hin as [Hin|Hin]; try discriminate Hin; try contradiction. injection Hin as <-. reflexivity.
Qed.

(** the pieces put together again, with a ';' between two of them *)
Fixpoint join_semis (ps : list str) : str :=
  match ps with
  | [] => []
  | [p] => p
  | p :: r => p ++ 59%N :: join_semis r
  end.

Definition count_semi (ts : list token) : nat :=
  length (filter (fun t => kind_eqb (tkind t) KSemi) ts).

Lemma kind_eqb_semi k : kind_eqb k KSemi = true <-> k = KSemi.
Proof. split; [destruct k; vm_compute; congruence|intros ->; reflexivity]. Qed.

Lemma split_at_semis_nonempty s start ts : split_at_semis s start ts <> [].
Proof.
  revert start; induction ts as [|t r IH]; intros start; cbn [split_at_semis]; [congruence|].
  destruct (tkind t); try apply IH; congruence.
Qed.

Lemma split_at_semis_count s ts : forall start,
  length (split_at_semis s start ts) = 1 + count_semi ts.
Proof.
  induction ts as [|t r IH]; intros start; cbn [split_at_semis]; [reflexivity|].
  unfold count_semi in *. cbn [filter].
  destruct (tkind t) eqn:E; try (rewrite IH; reflexivity).
  cbn [length]. rewrite IH. reflexivity.
Qed.

Lemma nth_error_skipn_cons {A} (l : list A) n x : nth_error l n = Some x -> skipn n l = x :: skipn (S n) l.
Proof.
  revert l; induction n as [|n IH]; intros [|y r]; cbn; try discriminate.
  - intros [= ->]. reflexivity.
  - intros H. apply IH in H. exact H.
Qed.

Lemma firstn_skipn_split {A} (l : list A) a b : a <= b -> skipn a l = firstn (b - a) (skipn a l) ++ skipn b l.
Proof.
  intros H. rewrite <- (firstn_skipn (b - a) (skipn a l)) at 1. f_equal.
  rewrite skipn_skipn_add. f_equal. lia.
Qed.

Lemma split_at_semis_join s ts : forall start,
  toks_within start (length s) ts ->
  (forall t, In t ts -> tkind t = KSemi -> tend t = S (tstart t) /\ nth_error s (tstart t) = Some 59%N) ->
  join_semis (split_at_semis s start ts) = skipn start s.
Proof.
  induction ts as [|t r IH]; intros start W Hs; cbn [split_at_semis]; [reflexivity|].
  inversion W as [|? ? ? ? H1 H2 H3 W']; subst.
  assert (IHr : forall st, toks_within st (length s) r -> join_semis (split_at_semis s st r) = skipn st s).
  { intros st Wst. apply IH; [exact Wst|]. intros t' Ht'. apply Hs. right. exact Ht'. }
  destruct (tkind t) eqn:Ek;
    try (apply IHr; apply toks_within_weaken with (lo := tend t); [lia|exact W']).
  destruct (Hs t (or_introl eq_refl) Ek) as [He Hn].
  pose proof (split_at_semis_nonempty s (tend t) r) as Hne.
  cbn [join_semis]. destruct (split_at_semis s (tend t) r) as [|p ps] eqn:Esp; [congruence|].
  rewrite <- Esp. rewrite (IHr (tend t) W').
  unfold slice. symmetry. etransitivity; [apply (firstn_skipn_split s start (tstart t)); lia|]. f_equal.
  rewrite He. apply nth_error_skipn_cons. exact Hn.
Qed.

Lemma hd_nth_error {A} (l : list A) n x r : skipn n l = x :: r -> nth_error l n = Some x.
Proof.
  revert l; induction n as [|n IH]; intros [|y t]; cbn; try discriminate.
  - intros [= -> _]. reflexivity.
  - apply IH.
Qed.

Theorem scan_semi_byte s t : In t (scan s) -> tkind t = KSemi ->
  tend t = S (tstart t) /\ nth_error s (tstart t) = Some 59%N.
Proof.
  intros Hin Hk. destruct (scan_items s t Hin) as (Hle & Hlex & Hlt).
  rewrite Hk in Hlex. apply lex1_semi in Hlex as (r & Hr & Hn & _).
  split; [lia|]. eapply hd_nth_error. exact Hr.
Qed.

Theorem split_join s : join_semis (split_statements s) = s.
Proof. unfold split_statements. rewrite split_at_semis_join; [reflexivity|apply scan_within|apply scan_semi_byte]. Qed.

Theorem split_count s : length (split_statements s) = 1 + count_semi (scan s).
Proof. apply split_at_semis_count. Qed.
