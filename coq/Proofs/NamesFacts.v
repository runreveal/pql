(** * What the subqueries read (property C05, Props/C05.v).  For every pipeline, at any join depth:
    every table a subquery reads (FROM, or either side of a JOIN) is a table named in the PQL source
    or an earlier subquery of the same list; a subquery that is not the target of an `as` is called
    __subquery<its index>; and every subquery but the last is read by a later one. *)
From PQL Require Import Model.Compile Proofs.ExprInd Proofs.WriterEqns Proofs.SplitSteps Proofs.PipelineFacts Proofs.JoinFacts.
From Coq Require Import Lia.
Local Open Scope list_scope.
Local Open Scope nat_scope.
Local Notation length := List.length (only parsing).

Definition reads (s : subq) : list str :=
  match sq_source s with SrcName n => [n] | SrcJoin _ l _ r _ _ => [l; r] end.

(** a subquery's name, what it reads, whether `as` named it *)
Definition view := (str * list str * bool)%type.
Definition nm (v : view) : str := fst (fst v).
Definition rds (v : view) : list str := snd (fst v).
Definition isas (v : view) : bool := snd v.
Definition view_of (s : subq) : view := (sq_name s, reads s, is_as s).
Definition views (dst : list subq) : list view := map view_of dst.

(** The invariant of the split loop.  [T]: the table names of the PQL source; [vs]: the
    subqueries so far; [ds]: where the subqueries of the pipeline at hand begin; [pend]: the
    indices of subqueries that wait to be read by a join not yet appended (the last subquery of each
    enclosing pipeline). *)
Record Inv (T : list str) (ds : nat) (pend : list nat) (vs : list view) : Prop := mkInv
  { inv_resolved : forall i v, nth_error vs i = Some v -> incl (rds v) (T ++ map nm (firstn i vs));
    inv_gen : forall i v, nth_error vs i = Some v -> isas v = false -> nm v = subquery_name i;
    inv_used : forall j v, nth_error vs j = Some v -> j + 1 < length vs -> ~ In j pend ->
               In (nm v) (flat_map rds (skipn (S j) vs));
    inv_start : ds <= length vs;
    inv_pend : 0 < ds -> In (ds - 1) pend }.

Lemma firstn_snoc_le {A} (l : list A) x i : i <= length l -> firstn i (l ++ [x]) = firstn i l.
Proof. intros H. rewrite firstn_app. replace (i - length l) with 0 by lia. cbn [firstn]. apply app_nil_r. Qed.

Lemma skipn_snoc_le {A} (l : list A) x i : i <= length l -> skipn i (l ++ [x]) = skipn i l ++ [x].
Proof. intros H. rewrite skipn_app. replace (i - length l) with 0 by lia. reflexivity. Qed.

(** possibly while leaving a nested pipeline (from [ds'], [pend'] back to [ds], [pend]) *)
Lemma inv_snoc T ds ds' pend pend' vs v :
  Inv T ds' pend' vs -> ds <= length vs -> (0 < ds -> In (ds - 1) pend) ->
  incl (rds v) (T ++ map nm vs) ->
  (isas v = false -> nm v = subquery_name (length vs)) ->
  (forall j u, nth_error vs j = Some u -> ~ In j pend -> (In j pend' \/ j + 1 = length vs) -> In (nm u) (rds v)) ->
  Inv T ds pend (vs ++ [v]).
Proof.
  intros [Hr Hg Hu Hs Hp] Hds Hpe Hin Hgen Hnew. constructor.
  - intros i w Hi. apply nth_error_snoc in Hi as [[Hlt Hi]|[-> ->]].
    + rewrite firstn_snoc_le by lia. apply Hr. exact Hi.
    + rewrite firstn_app, firstn_all. replace (length vs - length vs) with 0 by lia. cbn [firstn]. rewrite app_nil_r. exact Hin.
  - intros i w Hi Ha. apply nth_error_snoc in Hi as [[Hlt Hi]|[-> ->]]; [apply Hg; assumption|apply Hgen; exact Ha].
  - intros j w Hj Hlen Hnp. rewrite app_length in Hlen. cbn [length] in Hlen.
    apply nth_error_snoc in Hj as [[Hlt Hj]|[-> ->]]; [|lia].
    rewrite skipn_snoc_le by lia. rewrite flat_map_app. apply in_or_app.
    destruct (Nat.eq_dec (j + 1) (length vs)) as [El|Nl].
    + right. cbn [flat_map]. rewrite app_nil_r. apply (Hnew j w Hj Hnp). right. exact El.
    + destruct (in_dec Nat.eq_dec j pend') as [Ip|Np].
      * right. cbn [flat_map]. rewrite app_nil_r. apply (Hnew j w Hj Hnp). left. exact Ip.
      * left. apply Hu; [exact Hj|lia|exact Np].
  - rewrite app_length. cbn [length]. lia.
  - exact Hpe.
Qed.

(** entering the parenthesised pipeline of a join: the last subquery so far waits for the join *)
Lemma inv_enter T ds pend vs : Inv T ds pend vs ->
  Inv T (length vs) (if Nat.eqb (length vs) 0 then pend else (length vs - 1) :: pend) vs.
Proof.
  intros [Hr Hg Hu Hs Hp]. constructor; try assumption.
  - intros j v Hj Hlen Hnp. apply Hu; [exact Hj|exact Hlen|]. intros Hin. apply Hnp.
    destruct (Nat.eqb (length vs) 0); [exact Hin|right; exact Hin].
  - lia.
  - intros H0. destruct (Nat.eqb (length vs) 0) eqn:E; [apply Nat.eqb_eq in E; lia|left; reflexivity].
Qed.

Definition ext_of (vs vs' : list view) : Prop := exists e, vs' = vs ++ e.
Lemma ext_refl vs : ext_of vs vs.
Proof. exists []. symmetry. apply app_nil_r. Qed.
Lemma ext_trans a b c : ext_of a b -> ext_of b c -> ext_of a c.
Proof. intros [e ->] [f ->]. exists (e ++ f). symmetry. apply app_assoc. Qed.
Lemma ext_snoc vs v : ext_of vs (vs ++ [v]).
Proof. exists [v]. reflexivity. Qed.
Lemma ext_len a b : ext_of a b -> length a <= length b.
Proof. intros [e ->]. rewrite app_length. lia. Qed.
Lemma ext_nth a b i v : ext_of a b -> nth_error a i = Some v -> nth_error b i = Some v.
Proof. intros [e ->] H. rewrite nth_error_app1; [exact H|]. apply nth_error_Some. congruence. Qed.

Lemma ext_names T a b : ext_of a b -> incl (T ++ map nm a) (T ++ map nm b).
Proof. intros [e ->]. rewrite map_app. auto with datatypes. Qed.

Lemma views_snoc dst s : views (dst ++ [s]) = views dst ++ [view_of s].
Proof. unfold views. rewrite map_app. reflexivity. Qed.

Lemma views_set_last dst f : (forall s, view_of (f s) = view_of s) -> views (set_last dst f) = views dst.
Proof. apply map_set_last. Qed.

Lemma views_nth dst i s : nth_error dst i = Some s -> nth_error (views dst) i = Some (view_of s).
Proof. intros H. unfold views. rewrite nth_error_map, H. reflexivity. Qed.

Lemma views_length dst : length (views dst) = length dst.
Proof. apply map_length. Qed.

Lemma in_names_of_nth vs j u : nth_error vs j = Some u -> In (nm u) (map nm vs).
Proof. intros H. apply in_map. eapply nth_error_In. exact H. Qed.

Section Split.
Variable sc : scope.

Lemma chain_view dst ds src : view_of (chain_subquery dst ds src) = (subquery_name (length dst), [left_source ds src dst], false).
Proof. rewrite chain_subquery_eq. reflexivity. Qed.

Lemma left_source_resolved T ds src dst : In (iname src) T -> In (left_source ds src dst) (T ++ map nm (views dst)).
Proof.
  intros Hsrc. apply in_or_app. destruct (left_source_cases ds src dst) as [[_ ->]|(_ & s & El & ->)]; [left; exact Hsrc|right].
  apply (in_names_of_nth _ _ _ (views_nth _ _ _ El)).
Qed.

(** if this pipeline has a subquery of its own, the table so far is the last one *)
Lemma left_source_last ds src dst vs j u : ext_of (views dst) vs -> ds < length dst ->
  nth_error vs j = Some u -> j + 1 = length dst -> left_source ds src dst = nm u.
Proof.
  intros He Hlt Hj Hl. destruct (left_source_cases ds src dst) as [[Hle _]|(_ & s & El & ->)]; [lia|].
  replace (length dst - 1) with j in El by lia. rewrite (ext_nth _ _ _ _ He (views_nth _ _ _ El)) in Hj. injection Hj as <-. reflexivity.
Qed.

(** appending a subquery that reads like the fresh one (the plain operators and the fallback) *)
Lemma inv_chain T ds pend dst src (a : bool) n :
  Inv T ds pend (views dst) -> In (iname src) T -> (a = false -> n = subquery_name (length dst)) ->
  Inv T ds pend (views dst ++ [(n, [left_source ds src dst], a)]).
Proof.
  intros HI Hsrc Hn. pose proof (inv_start _ _ _ _ HI) as Hs. rewrite views_length in Hs.
  apply (inv_snoc T ds ds pend pend); try assumption.
  - rewrite views_length. exact Hs.
  - apply (inv_pend _ _ _ _ HI).
  - cbn [rds fst snd]. intros x [<-|[]]. apply left_source_resolved, Hsrc.
  - cbn [isas nm fst snd]. rewrite views_length. exact Hn.
  - intros j u Hj Hnp [Hp|Hlast]; [contradiction|]. rewrite views_length in Hlast. cbn [rds fst snd]. left.
    destruct (Nat.lt_ge_cases ds (length dst)) as [Hlt|Hge]; [exact (left_source_last ds src dst _ j u (ext_refl _) Hlt Hj Hlast)|].
    (* no subquery of its own yet: the last one waits for the join *)
    exfalso. apply Hnp. replace j with (ds - 1) by lia. apply (inv_pend _ _ _ _ HI). lia.
Qed.

Lemma inv_ensure_one T ds pend dst src : Inv T ds pend (views dst) -> In (iname src) T ->
  Inv T ds pend (views (ensure_one ds src dst)) /\ ext_of (views dst) (views (ensure_one ds src dst)).
Proof.
  intros HI Hsrc. unfold ensure_one. destruct (Nat.eqb _ _); [|split; [exact HI|apply ext_refl]].
  rewrite views_snoc, chain_view. split; [apply inv_chain; auto|apply ext_snoc].
Qed.

Definition stepN (o : operator) : Prop := forall T ds pend src dst dst',
  Inv T ds pend (views dst) -> In (iname src) T -> incl (table_names o) T ->
  split_op sc ds src dst o = Ok dst' ->
  Inv T ds pend (views dst') /\ ext_of (views dst) (views dst').

Lemma fold_stepN ops : Forall stepN ops -> forall T ds pend src dst dst',
  Inv T ds pend (views dst) -> In (iname src) T -> incl (flat_map table_names ops) T ->
  fold_res (split_op sc ds src) ops dst = Ok dst' ->
  Inv T ds pend (views dst') /\ ext_of (views dst) (views dst').
Proof.
  induction 1 as [|o r Ho Hr IH]; intros T ds pend src dst dst' HI Hsrc Hinc Hf; cbn [fold_res] in Hf.
  - injection Hf as <-. split; [exact HI|apply ext_refl].
  - destruct (split_op sc ds src dst o) as [d1|] eqn:E; cbn [bind] in Hf; [|discriminate].
    cbn [flat_map] in Hinc. destruct (Ho T ds pend src dst d1 HI Hsrc (fun x Hx => Hinc x (in_or_app _ _ _ (or_introl Hx))) E) as [H1 E1].
    destruct (IH T ds pend src d1 dst' H1 Hsrc (fun x Hx => Hinc x (in_or_app _ _ _ (or_intror Hx))) Hf) as [H2 E2].
    split; [exact H2|eapply ext_trans; eassumption].
Qed.

Lemma stepN_plain o : is_join o = false -> stepN o.
Proof.
  intros Hj T ds pend src dst dst' HI Hsrc _ Hs. rewrite (split_op_plain _ _ _ _ _ Hj) in Hs. injection Hs as <-.
  destruct (lands_on_last o (state_of dst ds)) eqn:El.
  - (* sort, take and top change neither name nor what is read *)
    rewrite views_set_last; [split; [exact HI|apply ext_refl]|].
    intros s. destruct (decorate_last o _ s El) as (Hn & Hsrc' & Hop). unfold view_of, reads, is_as. rewrite Hn, Hsrc', Hop. reflexivity.
  - rewrite views_snoc. split; [|apply ext_snoc]. set (new := decorate o _).
    replace (view_of new) with (sq_name new, [left_source ds src dst], is_as new)
      by (unfold view_of, reads, new; rewrite (decorate_source _ _ Hj), chain_subquery_eq; reflexivity).
    apply inv_chain; [exact HI|exact Hsrc|]. subst new. intros Ha. destruct o; try discriminate Hj; try reflexivity. discriminate Ha.
Qed.

Lemma stepN_join p k ks ka fl lp rsrc rops rp on conds : Forall stepN rops -> stepN (OJoin p k ks ka fl lp rsrc rops rp on conds).
Proof.
  intros Hrops T ds pend src dst dst' HI Hsrc Hinc Hs.
  apply split_op_join_ok in Hs as (d1 & outer & cond & Ef & _ & _ & ->).
  cbn [table_names] in Hinc.
  assert (Hrs : In (iname rsrc) T) by (apply Hinc; left; reflexivity).
  set (pend' := if Nat.eqb (length (views dst)) 0 then pend else (length (views dst) - 1) :: pend).
  pose proof (inv_enter T ds pend (views dst) HI) as HE. fold pend' in HE. rewrite views_length in HE.
  destruct (fold_stepN rops Hrops T (length dst) pend' rsrc dst d1 HE Hrs (fun x Hx => Hinc x (or_intror Hx)) Ef) as [H1 E1].
  destruct (inv_ensure_one T (length dst) pend' d1 rsrc H1 Hrs) as [He1 Ee1'].
  assert (Hlen : length dst < length (ensure_one (length dst) rsrc d1))
    by (apply ensure_one_longer; apply ext_len in E1; rewrite !views_length in E1; exact E1).
  set (e1 := ensure_one (length dst) rsrc d1) in *.
  assert (Ee1 : ext_of (views dst) (views e1)) by (eapply ext_trans; eassumption).
  rewrite views_snoc. split; [|eapply ext_trans; [exact Ee1|apply ext_snoc]].
  replace (view_of _) with (subquery_name (length e1), [left_source ds src dst; last_name e1], false) by reflexivity.
  destruct (last_name_nth e1) as (sr & Er & ->); [intros E; rewrite E in Hlen; inversion Hlen|]. apply views_nth in Er.
  pose proof (inv_start _ _ _ _ HI) as Hds. rewrite views_length in Hds.
  apply (inv_snoc T ds (length dst) pend pend'); try assumption.
  - rewrite views_length. lia.
  - apply (inv_pend _ _ _ _ HI).
  - cbn [rds fst snd]. intros x [<-|[<-|[]]].
    + apply (ext_names _ _ _ Ee1), left_source_resolved, Hsrc.
    + apply in_or_app. right. apply (in_names_of_nth _ _ _ Er).
  - cbn [isas nm fst snd]. rewrite views_length. reflexivity.
  - intros j u Hj Hnp Hor. cbn [rds fst snd]. rewrite views_length in Hor.
    destruct Hor as [Hp|Hlast].
    + (* the subquery the left side ended with *)
      unfold pend' in Hp. rewrite views_length in Hp.
      destruct (Nat.eqb_spec (length dst) 0) as [|E0]; [contradiction|]. destruct Hp as [<-|Hp]; [|contradiction]. left.
      destruct (Nat.lt_ge_cases ds (length dst)) as [Hlt|Hge]; [apply (left_source_last ds src dst _ _ u Ee1 Hlt Hj); lia|].
      exfalso. apply Hnp. replace (length dst - 1) with (ds - 1) by lia. apply (inv_pend _ _ _ _ HI). lia.
    + right. left. replace (length e1 - 1) with j in Er by lia. rewrite Er in Hj. injection Hj as <-. reflexivity.
Qed.

Theorem stepN_all o : stepN o.
Proof. induction o using operator_ind'; [apply stepN_plain; assumption|apply stepN_join; assumption]. Qed.

Definition tab_tables (t : tabular) : list str := iname (tsrc t) :: flat_map table_names (tops t).

Lemma inv_nil T : Inv T 0 [] [].
Proof.
  constructor.
  - intros i v H. destruct i; discriminate.
  - intros i v H. destruct i; discriminate.
  - intros j v H. destruct j; discriminate.
  - cbn. lia.
  - lia.
Qed.

Theorem split_queries_names t subs : split_queries sc [] t = Ok subs -> Inv (tab_tables t) 0 [] (views subs).
Proof.
  rewrite split_queries_eq. cbn [length]. intros H. apply bind_ok in H as (d1 & Ef & [= <-]).
  assert (Hsrc : In (iname (tsrc t)) (tab_tables t)) by (left; reflexivity).
  destruct (fold_stepN (tops t) (proj2 (Forall_forall _ _) (fun o _ => stepN_all o)) (tab_tables t) 0 [] (tsrc t) [] d1
              (inv_nil _) Hsrc (fun x Hx => or_intror Hx) Ef) as [H1 _].
  apply inv_ensure_one; assumption.
Qed.
End Split.

Lemma nth_error_firstn_lt {A} (l : list A) : forall i j, j < i -> nth_error (firstn i l) j = nth_error l j.
Proof. induction l as [|x r IH]; intros [|i] [|j] H; cbn [firstn nth_error]; try reflexivity; try lia. apply IH. lia. Qed.

Lemma nth_error_skipn_add {A} (l : list A) : forall i k, nth_error (skipn i l) k = nth_error l (i + k).
Proof. induction l as [|x r IH]; intros [|i] k; cbn [skipn nth_error Nat.add]; try reflexivity; [destruct k; reflexivity|apply IH]. Qed.

Theorem tables_resolved sc t subs i s : split_queries sc [] t = Ok subs -> nth_error subs i = Some s ->
  forall n, In n (reads s) -> In n (tab_tables t) \/ exists j s', j < i /\ nth_error subs j = Some s' /\ sq_name s' = n.
Proof.
  intros H Hi n Hn. pose proof (split_queries_names sc t subs H) as HI.
  pose proof (inv_resolved _ _ _ _ HI i (view_of s) (views_nth _ _ _ Hi) n Hn) as Hin.
  apply in_app_or in Hin as [Ht|Hb]; [left; exact Ht|right].
  apply in_map_iff in Hb as (v & Hv & Hvin). apply In_nth_error in Hvin as (j & Hj).
  assert (Hjlt : j < i).
  { assert (j < length (firstn i (views subs))) by (apply nth_error_Some; congruence). rewrite firstn_length in H0. lia. }
  rewrite nth_error_firstn_lt in Hj by exact Hjlt. unfold views in Hj. rewrite nth_error_map in Hj.
  destruct (nth_error subs j) as [s'|] eqn:Es; [|discriminate]. injection Hj as <-.
  exists j, s'. split; [exact Hjlt|split; [exact Es|exact Hv]].
Qed.

Theorem generated_names sc t subs i s : split_queries sc [] t = Ok subs -> nth_error subs i = Some s ->
  is_as s = false -> sq_name s = subquery_name i.
Proof. intros H Hi Ha. apply (inv_gen _ _ _ _ (split_queries_names sc t subs H) i (view_of s) (views_nth _ _ _ Hi) Ha). Qed.

Theorem every_cte_is_read sc t subs j s : split_queries sc [] t = Ok subs -> nth_error subs j = Some s -> j + 1 < length subs ->
  exists i s', j < i /\ nth_error subs i = Some s' /\ In (sq_name s) (reads s').
Proof.
  intros H Hj Hlen. pose proof (split_queries_names sc t subs H) as HI.
  pose proof (inv_used _ _ _ _ HI j (view_of s) (views_nth _ _ _ Hj) ltac:(rewrite views_length; exact Hlen) (fun x => x)) as Hin.
  apply in_flat_map in Hin as (v & Hvin & Hr). apply In_nth_error in Hvin as (k & Hk).
  rewrite nth_error_skipn_add in Hk. unfold views in Hk. rewrite nth_error_map in Hk.
  destruct (nth_error subs (S j + k)) as [s'|] eqn:Es; [|discriminate]. injection Hk as <-.
  exists (S j + k), s'. split; [lia|split; [exact Es|exact Hr]].
Qed.
