(** * Decimal printing is injective (generated subquery names are pairwise different). *)
From PQL Require Import Model.Compile.
From Coq Require Import Lia ZifyNat String.
Local Open Scope list_scope.
Local Open Scope N_scope.
Local Notation length := List.length (only parsing).

Definition dval (ds : str) : N := fold_left (fun acc c => acc * 10 + (c - 48)) ds 0.

Lemma fold_dval l : forall a, fold_left (fun acc c => acc * 10 + (c - 48)) l a = a * 10 ^ N.of_nat (length l) + dval l.
Proof.
  induction l as [|c r IH]; intros a.
  - unfold dval. cbn [fold_left length]. change (N.of_nat 0) with 0. rewrite N.pow_0_r. lia.
  - cbn [fold_left length]. rewrite IH.
    change (dval (c :: r)) with (fold_left (fun acc c0 => acc * 10 + (c0 - 48)) r (0 * 10 + (c - 48))).
    rewrite (IH (0 * 10 + (c - 48))). rewrite Nat2N.inj_succ, N.pow_succ_r' by lia. lia.
Qed.

Lemma dval_cons c l : dval (c :: l) = (c - 48) * 10 ^ N.of_nat (length l) + dval l.
Proof. unfold dval at 1. cbn [fold_left]. rewrite fold_dval. lia. Qed.

Lemma dec_digits_value fuel : forall n acc, n < 2 ^ N.of_nat fuel ->
  dval (dec_digits fuel n acc) = n * 10 ^ N.of_nat (length acc) + dval acc.
Proof.
  induction fuel as [|f IH]; intros n acc Hn.
  - cbn in Hn. assert (n = 0) by lia. subst. cbn [dec_digits]. lia.
  - cbn [dec_digits]. destruct (n / 10 =? 0) eqn:E.
    + apply N.eqb_eq in E. rewrite dval_cons.
      assert (Hm : n mod 10 = n). { pose proof (N.div_mod n 10). lia. }
      replace (48 + n mod 10 - 48) with (n mod 10) by lia. rewrite Hm. reflexivity.
    + rewrite IH.
      * rewrite dval_cons. cbn [length]. rewrite Nat2N.inj_succ, N.pow_succ_r'.
        replace (48 + n mod 10 - 48) with (n mod 10) by lia.
        pose proof (N.div_mod n 10 ltac:(lia)) as Hd.
        set (p := 10 ^ N.of_nat (length acc)) in *. nia.
      * rewrite Nat2N.inj_succ, N.pow_succ_r' in Hn.
        assert (n / 10 <= n / 2) by (apply N.div_le_compat_l; lia).
        assert (n / 2 < 2 ^ N.of_nat f) by (apply N.div_lt_upper_bound; lia). lia.
Qed.

Theorem N_to_dec_value n : dval (N_to_dec n) = n.
Proof.
  unfold N_to_dec. rewrite dec_digits_value.
  - cbn. lia.
  - rewrite Nat2N.inj_succ, N2Nat.id.
    destruct n as [|p]; [cbn; lia|]. apply N.log2_spec. lia.
Qed.

Theorem nat_to_dec_inj i j : nat_to_dec i = nat_to_dec j -> i = j.
Proof.
  unfold nat_to_dec. intros H. apply (f_equal dval) in H. rewrite !N_to_dec_value in H. lia.
Qed.

Theorem subquery_name_inj i j : subquery_name i = subquery_name j -> i = j.
Proof. unfold subquery_name. intros H. apply app_inv_head in H. apply nat_to_dec_inj. exact H. Qed.

(** names of the generated shape *)
Fixpoint prefix_eqb (p s : str) : bool :=
  match p, s with
  | [], _ => true
  | x :: p', y :: s' => (x =? y) && prefix_eqb p' s'
  | _, [] => false
  end.
Definition gen_shape (n : str) : bool := prefix_eqb (L "__subquery") n.

Lemma prefix_eqb_app p s : prefix_eqb p (p ++ s) = true.
Proof. induction p as [|c r IH]; cbn; [reflexivity|]. rewrite N.eqb_refl. exact IH. Qed.

Lemma subquery_name_gen i : gen_shape (subquery_name i) = true.
Proof. apply prefix_eqb_app. Qed.
