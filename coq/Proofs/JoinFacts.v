(** * With joins, nested and in any number, the subqueries built by splitQueries still denote the
    pipeline (property C03, Props/C03.v).  The invariant of PipelineFacts.v is built again rather
    than extended: subqueries of several pipelines share one list and `as` binds names, so it
    needs indices and conditions on names. *)
From PQL Require Import Spec.PipeSem Proofs.ExprInd Proofs.WriterEqns Proofs.SplitSteps Proofs.PipelineFacts Proofs.DecFacts.
From Coq Require Import Lia.
Local Open Scope list_scope.
Local Open Scope nat_scope.
Local Notation length := List.length (only parsing).

Fixpoint as_names (o : operator) : list str :=
  match o with
  | OAs _ _ n => [iname n]
  | OJoin _ _ _ _ _ _ _ rops _ _ _ => flat_map as_names rops
  | _ => []
  end.
Fixpoint table_names (o : operator) : list str :=
  match o with
  | OJoin _ _ _ _ _ _ rsrc rops _ _ _ => iname rsrc :: flat_map table_names rops
  | _ => []
  end.

Section Join.
Variable F : fenv.
Variable ev : bool -> env -> expr -> value.
Variable source : str.
Variable sc : scope.
Variable db0 : database.

Notation evalS := (eval_subqs F ev source db0 None).
Notation eval1 := (eval_subq F ev source).
Notation apply1 := (apply_op F ev source).

Definition nongen (n : str) : Prop := gen_shape n = false.

(** [d]: all subqueries so far; [dbp]: tables and `as` names *)
Definition agree (d dbp : database) : Prop := forall n, nongen n -> lookup d n = lookup dbp n.

(** only names from index [lo] on and the `as` names [asn] may change *)
Definition grows (d d' : database) (lo : nat) (asn : list str) : Prop :=
  forall n, (forall i, lo <= i -> n <> subquery_name i) -> ~ In n asn -> lookup d' n = lookup d n.

Definition is_as (s : subq) : bool := match sq_op s with Some (OAs _ _ _) => true | _ => false end.
Definition wf_entry (i : nat) (s : subq) : Prop :=
  if is_as s then nongen (sq_name s) else sq_name s = subquery_name i.
Definition names_wf (dst : list subq) : Prop := forall i s, nth_error dst i = Some s -> wf_entry i s.

(** The loop invariant.  [invg ds src dst dbp cur d]: the pipeline with source [src], whose own
    subqueries are those of [dst] from index [ds] on, has reached table [cur]; evaluating [dst]
    gives [d].  Either it has no subquery yet and [cur] is its source table, or the last subquery
    of [dst] is its own and evaluates to [cur]. *)
Inductive invg (ds : nat) (src : ident) (dst : list subq) (dbp : database) (cur : table) : database -> Prop :=
| G_base d l : length dst = ds -> evalS dst = Some (d, l) -> agree d dbp ->
    lookup dbp (iname src) = Some cur -> names_wf dst -> invg ds src dst dbp cur d
| G_snoc dst0 s d0 l0 : dst = dst0 ++ [s] -> ds <= length dst0 -> evalS dst0 = Some (d0, l0) ->
    eval1 d0 s = Some cur -> agree ((sq_name s, cur) :: d0) dbp -> names_wf dst ->
    invg ds src dst dbp cur ((sq_name s, cur) :: d0).

Lemma invg_eval ds src dst dbp cur d : invg ds src dst dbp cur d ->
  exists l, evalS dst = Some (d, l) /\ agree d dbp /\ names_wf dst /\ ds <= length dst.
Proof.
  intros [d' l Hl He Ha Hs Hw | dst0 s d0 l0 -> Hd H0 H1 Ha Hw].
  - exists l. repeat split; try assumption. lia.
  - exists (Some cur). repeat split; try assumption.
    + exact (eval_subqs_snoc F ev source db0 _ _ _ _ _ H0 H1).
    + rewrite length_snoc. lia.
Qed.

Lemma nongen_not_generated n i : nongen n -> n <> subquery_name i.
Proof. intros H ->. unfold nongen in H. rewrite subquery_name_gen in H. discriminate. Qed.

Lemma agree_gen d dbp i v : agree ((subquery_name i, v) :: d) dbp <-> agree d dbp.
Proof.
  assert (E : forall n, nongen n -> lookup ((subquery_name i, v) :: d) n = lookup d n).
  { intros n Hn. cbn [lookup]. rewrite (proj2 (str_eqb_neq _ _)); [reflexivity|]. intros E. exact (nongen_not_generated n i Hn (eq_sym E)). }
  split; intros H n Hn; [rewrite <- E by exact Hn|rewrite E by exact Hn]; apply H; exact Hn.
Qed.

Lemma agree_push_both d dbp n v : agree d dbp -> agree ((n, v) :: d) ((n, v) :: dbp).
Proof. intros H m Hm. cbn [lookup]. destruct (str_eqb n m); [reflexivity|apply H; exact Hm]. Qed.

Lemma grows_refl d lo asn : grows d d lo asn.
Proof. intros n _ _. reflexivity. Qed.

Lemma grows_trans d1 d2 d3 lo a1 a2 : grows d1 d2 lo a1 -> grows d2 d3 lo a2 -> grows d1 d3 lo (a1 ++ a2).
Proof.
  intros H1 H2 n Hi Ha. rewrite H2, H1; try assumption; try reflexivity.
  - intros Hin. apply Ha. apply in_or_app. left. exact Hin.
  - intros Hin. apply Ha. apply in_or_app. right. exact Hin.
Qed.

Lemma grows_weaken d d' lo lo' asn : lo' <= lo -> grows d d' lo asn -> grows d d' lo' asn.
Proof. intros Hl H n Hi Ha. apply H; [|exact Ha]. intros i Hle. apply Hi. lia. Qed.

Lemma grows_push d n v lo asn : (exists i, lo <= i /\ n = subquery_name i) \/ In n asn -> grows d ((n, v) :: d) lo asn.
Proof.
  intros Hn m Hi Ha. cbn [lookup]. rewrite (proj2 (str_eqb_neq _ _)); [reflexivity|].
  intros ->. destruct Hn as [(i & Hle & ->)|Hin]; [exact (Hi i Hle eq_refl)|exact (Ha Hin)].
Qed.

Lemma grows_replace d n v v' lo asn : (exists i, lo <= i /\ n = subquery_name i) -> grows ((n, v) :: d) ((n, v') :: d) lo asn.
Proof.
  intros (i & Hle & ->) m Hi Ha. cbn [lookup]. rewrite (proj2 (str_eqb_neq _ _)); [reflexivity|].
  intros <-. exact (Hi i Hle eq_refl).
Qed.

Lemma names_wf_snoc dst s : names_wf dst -> wf_entry (length dst) s -> names_wf (dst ++ [s]).
Proof. intros H Hs i x Hx. apply nth_error_snoc in Hx as [[_ Hx]|[-> ->]]; [apply H; exact Hx|exact Hs]. Qed.

Lemma names_wf_prefix dst0 s : names_wf (dst0 ++ [s]) -> names_wf dst0.
Proof.
  intros H i x Hx. apply H. rewrite nth_error_app1; [exact Hx|].
  apply nth_error_Some. congruence.
Qed.

Lemma wf_last dst0 s : names_wf (dst0 ++ [s]) -> wf_entry (length dst0) s.
Proof. intros H. apply H. rewrite nth_error_app2 by lia. rewrite Nat.sub_diag. reflexivity. Qed.

Lemma names_wf_replace_last dst0 s (f : subq -> subq) :
  names_wf (dst0 ++ [s]) -> sq_name (f s) = sq_name s -> is_as (f s) = is_as s -> names_wf (dst0 ++ [f s]).
Proof.
  intros H Hn Ha. apply names_wf_snoc; [exact (names_wf_prefix _ _ H)|].
  pose proof (wf_last _ _ H) as Hs. unfold wf_entry in *. rewrite Ha, Hn. exact Hs.
Qed.

Lemma fresh_reads_g ds src dst dbp cur d : invg ds src dst dbp cur d -> nongen (iname src) ->
  lookup d (left_source ds src dst) = Some cur.
Proof.
  intros [d' l Hl He Ha Hs Hw | dst0 s d0 l0 -> Hd H0 H1 Ha Hw] Hng; unfold left_source.
  - rewrite Hl, Nat.ltb_irrefl, (Ha _ Hng). exact Hs.
  - rewrite length_snoc. unfold last_name. rewrite last_opt_snoc.
    assert (Nat.ltb ds (S (length dst0)) = true) as -> by (apply Nat.ltb_lt; lia). apply lookup_head.
Qed.

(** one more subquery: under its generated name, or under an `as` name the pipeline binds too *)
Lemma invg_push ds src dst dbp dbp' cur d s v asn : invg ds src dst dbp cur d -> eval1 d s = Some v ->
  wf_entry (length dst) s -> (is_as s = true -> In (sq_name s) asn) -> agree ((sq_name s, v) :: d) dbp' ->
  invg ds src (dst ++ [s]) dbp' v ((sq_name s, v) :: d) /\ grows d ((sq_name s, v) :: d) ds asn.
Proof.
  intros H Hv Hs Hin Ha'. destruct (invg_eval _ _ _ _ _ _ H) as (l & He & Ha & Hw & Hle). split.
  - eapply G_snoc; [reflexivity|exact Hle|exact He|exact Hv|exact Ha'|apply names_wf_snoc; assumption].
  - apply grows_push. unfold wf_entry in Hs. destruct (is_as s); [right; auto|left; eauto].
Qed.

Lemma can_attach_not_as s : can_attach s = true -> is_as s = false.
Proof. unfold can_attach, is_as. destruct (sq_op s) as [[]|]; try reflexivity. vm_compute. discriminate. Qed.

(** a sort or limit attached to the last subquery: same name, new value *)
Lemma invg_attach ds src dst0 s d0 l0 dbp cur (f : subq -> subq) v' :
  ds <= length dst0 -> evalS dst0 = Some (d0, l0) ->
  agree ((sq_name s, cur) :: d0) dbp -> names_wf (dst0 ++ [s]) ->
  is_as s = false -> sq_name (f s) = sq_name s -> sq_op (f s) = sq_op s ->
  eval1 d0 (f s) = Some v' ->
  invg ds src (dst0 ++ [f s]) dbp v' ((sq_name (f s), v') :: d0)
  /\ grows ((sq_name s, cur) :: d0) ((sq_name (f s), v') :: d0) ds [].
Proof.
  intros Hle H0 Ha Hw Has Hn Hop Hv.
  assert (Hgen : sq_name s = subquery_name (length dst0)).
  { pose proof (wf_last _ _ Hw) as Hx. unfold wf_entry in Hx. rewrite Has in Hx. exact Hx. }
  split.
  - eapply G_snoc; [reflexivity|exact Hle|exact H0|exact Hv| |].
    + rewrite Hn, Hgen. rewrite Hgen in Ha. apply agree_gen. exact (proj1 (agree_gen _ _ _ _) Ha).
    + apply names_wf_replace_last; [exact Hw|exact Hn|unfold is_as; rewrite Hop; reflexivity].
  - rewrite Hn. apply grows_replace. exists (length dst0). split; [exact Hle|exact Hgen].
Qed.

Definition names_ok_op (src : ident) (o : operator) : Prop :=
  nongen (iname src) /\ (forall n, In n (as_names o) -> nongen n) /\ (forall n, In n (table_names o) -> nongen n).

Lemma step_g_plain ds src dst dbp cur d o :
  invg ds src dst dbp cur d -> is_join o = false -> nongen (iname src) -> (forall n, In n (as_names o) -> nongen n) ->
  forall dst' dbp' cur', split_op sc ds src dst o = Ok dst' -> run_op F ev source sc dbp cur o = Some (dbp', cur') ->
  exists d', invg ds src dst' dbp' cur' d' /\ grows d d' ds (as_names o).
Proof.
  intros Hinv Hj Hng Has dst' dbp' cur' Hs Hr.
  rewrite (split_op_plain _ _ _ _ _ Hj) in Hs. injection Hs as <-.
  destruct (lands_on_last o (state_of dst ds)) eqn:El.
  - (* lands on the last subquery *)
    destruct (lands_on_last_spec _ _ _ El) as (init & s & -> & Hds & Hat). rewrite set_last_snoc.
    assert (Hrun : (dbp', cur') = (dbp, apply1 o cur)) by (destruct o; try discriminate El; injection Hr as <- <-; reflexivity).
    injection Hrun as -> ->.
    destruct Hinv as [d' l' Hl He' Ha' Hsrc Hw' | dst0 s0 d0 l0 E0 Hd H0 H1 Ha' Hw']; [rewrite length_snoc in Hl; congruence|].
    apply app_inj_tail in E0 as [<- <-].
    destruct (invg_attach ds src init s d0 l0 dbp cur (decorate o) (apply1 o cur) Hd H0) as (G1 & G2);
      try (apply (decorate_last _ _ _ El)); try assumption.
    + apply can_attach_not_as, Hat.
    + eapply (eval1_decorate_last F ev source); eassumption.
    + eexists. split; [exact G1|]. intros n Hn _. apply G2; [exact Hn|intros []].
  - (* a fresh subquery *)
    pose proof (fresh_reads_g _ _ _ _ _ _ Hinv Hng) as Hfresh. destruct (invg_eval _ _ _ _ _ _ Hinv) as (_ & _ & Ha & _).
    rewrite chain_subquery_eq.
    set (new := decorate o _). assert (Hv : eval1 d new = Some (apply1 o cur)) by (apply (eval1_decorate_fresh F ev source); assumption).
    exists ((sq_name new, apply1 o cur) :: d).
    destruct o; try discriminate Hj; cbn [run_op] in Hr; injection Hr as <- <-.
    9: { (* as: the pipeline binds the name too *)
      eapply invg_push; [exact Hinv|exact Hv|apply Has; left; reflexivity|intros _; left; reflexivity|apply agree_push_both; exact Ha]. }
    (* else a generated name, which [agree] does not see *)
    all: eapply invg_push; [exact Hinv|exact Hv|reflexivity|discriminate|apply agree_gen; exact Ha].
Qed.

Lemma invg_ensure_one ds src dst dbp cur d : invg ds src dst dbp cur d -> nongen (iname src) ->
  exists d', invg ds src (ensure_one ds src dst) dbp cur d' /\ grows d d' ds [].
Proof.
  intros H Hng. unfold ensure_one. destruct (Nat.eqb (length dst) ds); [|exists d; split; [exact H|apply grows_refl]].
  destruct (invg_eval _ _ _ _ _ _ H) as (_ & _ & Ha & _). rewrite chain_subquery_eq. eexists.
  eapply invg_push; [exact H| |reflexivity|discriminate|apply agree_gen; exact Ha].
  unfold eval_subq. cbn [sq_source eval_source]. rewrite (fresh_reads_g _ _ _ _ _ _ H Hng). reflexivity.
Qed.

Definition names_sub (dst dst' : list subq) (asn : list str) : Prop :=
  forall n, In n (map sq_name dst') -> In n (map sq_name dst) \/ gen_shape n = true \/ In n asn.

Lemma names_sub_refl dst asn : names_sub dst dst asn.
Proof. intros n H. left. exact H. Qed.

Lemma names_sub_trans d1 d2 d3 a1 a2 : names_sub d1 d2 a1 -> names_sub d2 d3 a2 -> names_sub d1 d3 (a1 ++ a2).
Proof.
  intros H1 H2 n Hn. destruct (H2 n Hn) as [H|[H|H]].
  - destruct (H1 n H) as [H'|[H'|H']]; [left; exact H'|right; left; exact H'|right; right; apply in_or_app; left; exact H'].
  - right. left. exact H.
  - right. right. apply in_or_app. right. exact H.
Qed.

Lemma names_sub_push dst s asn : gen_shape (sq_name s) = true \/ In (sq_name s) asn -> names_sub dst (dst ++ [s]) asn.
Proof.
  intros Hs n Hn. rewrite map_app in Hn. apply in_app_or in Hn as [Hn|[<-|[]]]; [left; exact Hn|].
  destruct Hs; [right; left; assumption|right; right; assumption].
Qed.

Lemma names_sub_eq dst dst' asn : map sq_name dst' = map sq_name dst -> names_sub dst dst' asn.
Proof. intros E n Hn. left. rewrite <- E. exact Hn. Qed.

Lemma names_sub_ensure_one ds src dst : names_sub dst (ensure_one ds src dst) [].
Proof. unfold ensure_one. destruct (Nat.eqb _ _); [apply names_sub_push; left; apply subquery_name_gen|apply names_sub_refl]. Qed.

Lemma split_op_names ds src dst o dst' : is_join o = false -> split_op sc ds src dst o = Ok dst' -> names_sub dst dst' (as_names o).
Proof.
  intros Hj Hs. rewrite (split_op_plain _ _ _ _ _ Hj) in Hs. injection Hs as <-.
  destruct (lands_on_last o (state_of dst ds)) eqn:El.
  - apply names_sub_eq, map_set_last. intros s. apply (decorate_last _ _ _ El).
  - apply names_sub_push. destruct o; try discriminate Hj; first [left; apply subquery_name_gen|right; left; reflexivity].
Qed.

(** the naming conditions of the theorem *)
Definition ok (src : ident) (dst : list subq) (asn tbl : list str) : Prop :=
  nongen (iname src) /\ NoDup asn /\
  (forall n, In n asn -> nongen n /\ n <> iname src /\ ~ In n (map sq_name dst) /\ ~ In n tbl) /\
  (forall n, In n tbl -> nongen n).

Definition stepP (o : operator) : Prop :=
  forall ds src dst dbp cur d dst' dbp' cur',
    invg ds src dst dbp cur d -> ok src dst (as_names o) (table_names o) ->
    split_op sc ds src dst o = Ok dst' -> run_op F ev source sc dbp cur o = Some (dbp', cur') ->
    exists d', invg ds src dst' dbp' cur' d' /\ grows d d' ds (as_names o) /\ names_sub dst dst' (as_names o).

Lemma stepP_plain o : is_join o = false -> stepP o.
Proof.
  intros Hj ds src dst dbp cur d dst' dbp' cur' Hinv (Hng & Hnd & Hasn & Htbl) Hs Hr.
  destruct (step_g_plain ds src dst dbp cur d o Hinv Hj Hng (fun n Hn => proj1 (Hasn n Hn)) dst' dbp' cur' Hs Hr) as (d' & H1 & H2).
  exists d'. split; [exact H1|]. split; [exact H2|]. eapply split_op_names; eassumption.
Qed.

Lemma NoDup_app_l {A} (a b : list A) : NoDup (a ++ b) -> NoDup a.
Proof. induction a as [|x a IH]; cbn; intros H; [constructor|]. inversion H; subst. constructor; [|auto]. intros Hx. apply H2. apply in_or_app. left. exact Hx. Qed.
Lemma NoDup_app_r {A} (a b : list A) : NoDup (a ++ b) -> NoDup b.
Proof. induction a as [|x a IH]; cbn; intros H; [exact H|]. inversion H; subst. auto. Qed.
Lemma NoDup_app_disj {A} (a b : list A) x : NoDup (a ++ b) -> In x a -> ~ In x b.
Proof.
  induction a as [|y a IH]; cbn; intros H Hx; [destruct Hx|]. inversion H; subst.
  destruct Hx as [->|Hx]; [intros Hb; apply H2; apply in_or_app; right; exact Hb|apply IH; assumption].
Qed.

Lemma ok_app_l src dst a1 a2 t1 t2 : ok src dst (a1 ++ a2) (t1 ++ t2) -> ok src dst a1 t1.
Proof.
  intros (Hng & Hnd & Hasn & Htbl). split; [exact Hng|]. split; [eapply NoDup_app_l; exact Hnd|]. split.
  - intros n Hn. destruct (Hasn n (in_or_app _ _ _ (or_introl Hn))) as (A & B & C & D).
    repeat split; try assumption. intros Ht. apply D, in_or_app. left. exact Ht.
  - intros n Hn. apply Htbl, in_or_app. left. exact Hn.
Qed.

(** what the first part added is generated or among its own `as` names *)
Lemma ok_app_r src dst dst1 a1 a2 t1 t2 : ok src dst (a1 ++ a2) (t1 ++ t2) -> names_sub dst dst1 a1 -> ok src dst1 a2 t2.
Proof.
  intros (Hng & Hnd & Hasn & Htbl) Hn1. split; [exact Hng|]. split; [eapply NoDup_app_r; exact Hnd|]. split.
  - intros n Hn. destruct (Hasn n (in_or_app _ _ _ (or_intror Hn))) as (A & B & C & D).
    repeat split; try assumption.
    + intros Hin. destruct (Hn1 n Hin) as [H'|[H'|H']]; [exact (C H')|unfold nongen in A; congruence|].
      exact (NoDup_app_disj _ _ n Hnd H' Hn).
    + intros Ht. apply D, in_or_app. right. exact Ht.
  - intros n Hn. apply Htbl, in_or_app. right. exact Hn.
Qed.

Lemma ok_right src rsrc dst asn tbl : ok src dst asn (iname rsrc :: tbl) -> ok rsrc dst asn tbl.
Proof.
  intros (Hng & Hnd & Hasn & Htbl). split; [apply Htbl; left; reflexivity|]. split; [exact Hnd|]. split.
  - intros n Hn. destruct (Hasn n Hn) as (A & B & C & D). repeat split; try assumption.
    + intros ->. apply D. left. reflexivity.
    + intros Ht. apply D. right. exact Ht.
  - intros n Hn. apply Htbl. right. exact Hn.
Qed.

Lemma steps_g ops : Forall stepP ops ->
  forall ds src dst dbp cur d dst' dbp' cur',
    invg ds src dst dbp cur d -> ok src dst (flat_map as_names ops) (flat_map table_names ops) ->
    fold_res (split_op sc ds src) ops dst = Ok dst' -> run_ops F ev source sc dbp cur ops = Some (dbp', cur') ->
    exists d', invg ds src dst' dbp' cur' d' /\ grows d d' ds (flat_map as_names ops)
               /\ names_sub dst dst' (flat_map as_names ops).
Proof.
  induction 1 as [|o r Ho Hr IH]; intros ds src dst dbp cur d dst' dbp' cur' Hinv Hok Hs Hrun;
    cbn [fold_res run_ops flat_map] in *.
  - injection Hs as <-. injection Hrun as <- <-. exists d. split; [exact Hinv|]. split; [apply grows_refl|apply names_sub_refl].
  - destruct (split_op sc ds src dst o) as [dst1|p] eqn:E1; cbn [bind] in Hs; [|discriminate].
    destruct (run_op F ev source sc dbp cur o) as [[dbp1 cur1]|] eqn:E2; [|discriminate].
    destruct (Ho ds src dst dbp cur d dst1 dbp1 cur1 Hinv (ok_app_l _ _ _ _ _ _ Hok) E1 E2) as (d1 & Hinv1 & Hg1 & Hn1).
    destruct (IH ds src dst1 dbp1 cur1 d1 dst' dbp' cur' Hinv1 (ok_app_r _ _ _ _ _ _ _ Hok Hn1) Hs Hrun) as (d2 & Hinv2 & Hg2 & Hn2).
    exists d2. split; [exact Hinv2|]. split; [eapply grows_trans; eassumption|eapply names_sub_trans; eassumption].
Qed.

Lemma run_join_unfold dbp cur p k ks ka flavor lp rsrc rops rp on conds :
  run_op F ev source sc dbp cur (OJoin p k ks ka flavor lp rsrc rops rp on conds) =
  match lookup dbp (iname rsrc) with
  | None => None
  | Some rbase =>
    match run_ops F ev source sc dbp rbase rops with
    | Some (db', rt) =>
      let '(unique, outer) := join_flags flavor in
      Some (db', join_rows ev unique outer (build_join_cond sc conds) cur rt)
    | None => None
    end
  end.
Proof.
  cbn [run_op]. destruct (lookup dbp (iname rsrc)) as [rbase|]; [|reflexivity].
  assert (Hgo : forall l d c, (fix go (l : list operator) (d : database) (c : table) {struct l} : option (database * table) :=
             match l with
             | [] => Some (d, c)
             | o' :: r => match run_op F ev source sc d c o' with Some (d', c') => go r d' c' | None => None end
             end) l d c = run_ops F ev source sc d c l).
  { induction l as [|o' r IH]; intros d c; cbn [run_ops]; [reflexivity|].
    destruct (run_op F ev source sc d c o') as [[d' c']|]; [apply IH|reflexivity]. }
  rewrite Hgo. reflexivity.
Qed.

Lemma flags_agree fl outer : flavor_ok fl = Ok outer -> join_flags fl = (str_eqb (flavor_name fl) w_innerunique, outer).
Proof.
  unfold join_flags, flavor_ok. cbv zeta. fold (flavor_name fl). generalize (flavor_name fl) as n. intros n.
  destruct (str_eqb n w_inner) eqn:E1; cbn [orb].
  - intros [= <-]. apply str_eqb_eq in E1. rewrite E1. reflexivity.
  - destruct (str_eqb n w_innerunique) eqn:E2.
    + intros [= <-]. apply str_eqb_eq in E2. rewrite E2. reflexivity.
    + destruct (str_eqb n w_leftouter); [intros [= <-]; reflexivity|discriminate].
Qed.

Lemma left_still_visible ds src dst dbp cur d d' asn : invg ds src dst dbp cur d -> nongen (iname src) ->
  grows d d' (length dst) asn -> (forall n, In n asn -> n <> iname src /\ ~ In n (map sq_name dst)) ->
  lookup d' (left_source ds src dst) = Some cur.
Proof.
  intros Hinv Hng Hg Hasn. rewrite Hg; [exact (fresh_reads_g _ _ _ _ _ _ Hinv Hng)| |]; unfold left_source.
  - intros i Hi. destruct Hinv as [d0 l Hl He Ha Hs Hw | dstl sl dl ll -> Hdl H0 H1 Ha Hw].
    + rewrite Hl, Nat.ltb_irrefl. apply nongen_not_generated. exact Hng.
    + rewrite length_snoc in *. assert (Nat.ltb ds (S (length dstl)) = true) as -> by (apply Nat.ltb_lt; lia).
      unfold last_name. rewrite last_opt_snoc. pose proof (wf_last _ _ Hw) as Hx. unfold wf_entry in Hx. destruct (is_as sl).
      * apply nongen_not_generated. exact Hx.
      * rewrite Hx. intros E. apply subquery_name_inj in E. lia.
  - intros Hin. destruct (Hasn _ Hin) as [B C]. destruct (Nat.ltb ds (length dst)) eqn:El; [|congruence]. apply C.
    unfold last_name. destruct dst as [|x r _] using rev_ind; [discriminate El|]. rewrite last_opt_snoc, map_app. apply in_or_app. right. left. reflexivity.
Qed.

Lemma stepP_join p k ks ka flavor lp rsrc rops rp on conds :
  Forall stepP rops -> stepP (OJoin p k ks ka flavor lp rsrc rops rp on conds).
Proof.
  intros Hrops ds src dst dbp cur d dst' dbp' cur' Hinv Hok Hs Hr.
  apply split_op_join_ok in Hs as (dst1 & outer & cond & Efold & Eouter & Econd & ->). rewrite run_join_unfold in Hr.
  cbn [as_names table_names] in *. pose proof (ok_right _ _ _ _ _ Hok) as Hokr. destruct Hok as (Hng & Hnd & Hasn & Htbl).
  destruct (lookup dbp (iname rsrc)) as [rbase|] eqn:Erb; [|discriminate].
  destruct (run_ops F ev source sc dbp rbase rops) as [[db1 rt]|] eqn:Erun; [|discriminate].
  rewrite (flags_agree flavor outer Eouter) in Hr. injection Hr as <- <-.
  destruct (invg_eval _ _ _ _ _ _ Hinv) as (l & He & Ha & Hw & Hle).
  (* the right-hand pipeline starts after the subqueries so far *)
  assert (Hstart : invg (length dst) rsrc dst dbp rbase d) by (eapply G_base; eauto).
  destruct (steps_g rops Hrops (length dst) rsrc dst dbp rbase d dst1 db1 rt Hstart Hokr Efold Erun)
    as (d1 & Hinv1 & Hg1 & Hn1).
  destruct (invg_ensure_one _ _ _ _ _ _ Hinv1 (Htbl _ (or_introl eq_refl))) as (d1' & Hinvr & Hg1').
  pose proof (grows_trans _ _ _ _ _ _ Hg1 Hg1') as Hgr. rewrite app_nil_r in Hgr.
  set (right := ensure_one (length dst) rsrc dst1) in *.
  assert (Hlen : length dst < length right) by (apply ensure_one_longer; destruct (invg_eval _ _ _ _ _ _ Hinv1) as (_ & _ & _ & _ & H); exact H).
  assert (Hnr : names_sub dst right (flat_map as_names rops)).
  { rewrite <- (app_nil_r (flat_map as_names rops)). eapply names_sub_trans; [exact Hn1|apply names_sub_ensure_one]. }
  (* the right side's last subquery is on top, the left side below it *)
  pose proof (left_still_visible _ _ _ _ _ _ _ _ Hinv Hng Hgr (fun n Hn => let '(conj _ (conj B (conj C _))) := Hasn n Hn in conj B C)) as Hleft.
  destruct (invg_eval _ _ _ _ _ _ Hinvr) as (lr & Her & Har & Hwr & Hler).
  destruct Hinvr as [dr lr' Hl' He' Ha' Hs' Hw' | dst0 s d0 l0 Edst Hd H0 H1 Ha' Hw']; [lia|].
  set (J := join_subq sc ds src dst flavor conds outer cond right).
  set (v := join_rows ev (str_eqb (flavor_name flavor) w_innerunique) outer (build_join_cond sc conds) cur rt).
  assert (Hv : eval1 ((sq_name s, rt) :: d0) J = Some v).
  { unfold eval_subq, J, join_subq, last_name. cbn [sq_source sq_op eval_source sq_sort sq_take finish_subq].
    rewrite Hleft, Edst, last_opt_snoc, lookup_head. reflexivity. }
  exists ((sq_name J, v) :: (sq_name s, rt) :: d0). split; [|split].
  - eapply (G_snoc ds src (right ++ [J]) _ v right J); [reflexivity|lia|exact Her|exact Hv| |].
    + apply (agree_gen _ _ (length right)). exact Har.
    + apply names_wf_snoc; [exact Hwr|reflexivity].
  - rewrite <- (app_nil_r (flat_map as_names rops)). eapply grows_trans; [eapply grows_weaken; [exact Hle|exact Hgr]|].
    apply grows_push. left. exists (length right). split; [lia|reflexivity].
  - rewrite <- (app_nil_r (flat_map as_names rops)). eapply names_sub_trans; [exact Hnr|].
    apply names_sub_push. left. apply subquery_name_gen.
Qed.

Theorem stepP_all o : stepP o.
Proof. induction o using operator_ind'; [apply stepP_plain; assumption|apply stepP_join; assumption]. Qed.

Lemma invg_statement src dst dbp cur d : invg 0 src dst dbp cur d -> dst <> [] ->
  eval_statement F ev source db0 dst = Some cur.
Proof.
  intros [d' l Hl He Ha Hs Hw | dst0 s d0 l0 -> Hd H0 H1 Ha Hw] Hne.
  - destruct dst; [congruence|discriminate].
  - unfold eval_statement. rewrite (eval_subqs_snoc F ev source db0 _ _ _ _ _ H0 H1). reflexivity.
Qed.

Theorem split_queries_denotes_pipeline_joins t subqs :
  ok (tsrc t) [] (flat_map as_names (tops t)) (flat_map table_names (tops t)) ->
  split_queries sc [] t = Ok subqs ->
  forall r, run_pipeline F ev source sc db0 t = Some r -> eval_statement F ev source db0 subqs = Some r.
Proof.
  intros Hok Hs r Hr. rewrite split_queries_eq in Hs. cbn [length] in Hs. apply bind_ok in Hs as (dst1 & Ef & [= <-]).
  unfold run_pipeline in Hr.
  destruct (lookup db0 (iname (tsrc t))) as [base|] eqn:Eb; [|discriminate].
  destruct (run_ops F ev source sc db0 base (tops t)) as [[dbp' cur']|] eqn:Erun; [|discriminate].
  injection Hr as <-.
  assert (Hstart : invg 0 (tsrc t) [] db0 base db0).
  { eapply G_base; [reflexivity|reflexivity|intros n _; reflexivity|exact Eb|]. intros i s Hi. destruct i; discriminate. }
  assert (Hall : Forall stepP (tops t)) by (apply Forall_forall; intros o _; apply stepP_all).
  destruct (steps_g (tops t) Hall 0 (tsrc t) [] db0 base db0 dst1 dbp' cur' Hstart Hok Ef Erun) as (d1 & Hinv1 & _ & _).
  destruct (invg_ensure_one _ _ _ _ _ _ Hinv1 (proj1 Hok)) as (d1' & Hinv1' & _).
  eapply invg_statement; [exact Hinv1'|apply ensure_one_nonempty].
Qed.

End Join.
