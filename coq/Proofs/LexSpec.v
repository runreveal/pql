(** * What the tokens are (property C09, Props/C09.v): between tokens only white space and //
    comments; an identifier is the longest run [A-Za-z_$][A-Za-z0-9_]* at its position, and
    and/or/in/by get their own kinds; a backtick-quoted name of any bytes but a newline lexes back
    to that name; a hexadecimal literal's value is the decimal spelling of the same number; a
    decimal literal loses its leading zeros (one is written before a `.`/`e`); the one- and
    two-character operators. *)
From PQL Require Import Model.Lexer Proofs.LexerFacts Proofs.SplitFacts Proofs.LexCut Proofs.ScanCut.
From Coq Require Import Lia ZifyBool ZifyN String.
Local Open Scope list_scope.
Local Open Scope nat_scope.
Local Notation length := List.length (only parsing).

Definition layout_item (l : str) (n : nat) : Prop :=
  (is_space (fst (decode l)) = true /\ n = snd (decode l))
  \/ (exists r, l = 47%N :: 47%N :: r /\ n = 2 + comment_len r).

Lemma lex1_skip l n : l <> [] -> lex1 l = Skip n -> layout_item l n.
Proof.
  intros Hne. generalize (lex1_viewP l Hne). generalize (lex1 l). intros i V.
  destruct V as [l _ Hs|b r Hb|b r Hb|q r Hq|r|r|b c k r Hin|b k r Hin Hr|l _ Hs Hb]; try discriminate.
  - intros [= <-]. left. split; [exact Hs|reflexivity].
  - destruct (lex_ident_tok b r) as (k & v & m & -> & _). discriminate.
  - destruct (lex_number_tok b r) as (k & v & m & -> & _). discriminate.
  - destruct (lex_string_tok q r) as (k & v & m & -> & _). discriminate.
  - destruct (lex_quoted_tok 96%N r) as (k & v & m & -> & _). discriminate.
  - intros [= <-]. right. exists r. split; reflexivity.
Qed.

(** the source is covered, in order, by tokens and layout items and nothing else *)
Inductive covers : nat -> str -> list token -> Prop :=
| cv_nil off : covers off [] []
| cv_tok off l k v n ts : l <> [] -> lex1 l = Tok k v n -> covers (n + off) (skipn n l) ts ->
    covers off l (mkTok k off (n + off) v :: ts)
| cv_skip off l n ts : l <> [] -> lex1 l = Skip n -> layout_item l n -> covers (n + off) (skipn n l) ts ->
    covers off l ts.

Theorem scan_covers s : covers 0 s (scan s).
Proof.
  rewrite scan_eq. apply (scan_at_ind covers).
  - exact cv_nil.
  - intros off l k v n ts Hne Hlex _ IH. apply cv_tok; assumption.
  - intros off l n ts Hne Hlex _ IH. apply (cv_skip off l n); [exact Hne|exact Hlex|apply lex1_skip; assumption|exact IH].
Qed.

Lemma digit_not_ident_start c : is_digit c = true -> is_ident_start c = false /\ is_space c = false /\ (c < 128)%N.
Proof. unfold is_digit, is_ident_start, is_alpha, is_space, in_range. lia. Qed.

Lemma take_while_all p l : forallb p (take_while p l) = true.
Proof. induction l as [|c r IH]; cbn [take_while forallb]; [reflexivity|]. destruct (p c) eqn:E; cbn [forallb]; [rewrite E; exact IH|reflexivity]. Qed.

Lemma take_while_stop p l : match skipn (length (take_while p l)) l with [] => True | c :: _ => p c = false end.
Proof. induction l as [|c r IH]; cbn [take_while]; [exact I|]. destruct (p c) eqn:E; cbn [length skipn]; [exact IH|exact E]. Qed.

Lemma take_while_prefix p l : firstn (length (take_while p l)) l = take_while p l.
Proof. induction l as [|c r IH]; cbn [take_while]; [reflexivity|]. destruct (p c); cbn [length firstn]; [rewrite IH; reflexivity|reflexivity]. Qed.

Lemma take_while_run p ds rest : forallb p ds = true -> (match rest with c :: _ => p c = false | [] => True end) ->
  take_while p (ds ++ rest) = ds.
Proof.
  intros Hds Hrest. induction ds as [|d r IH]; cbn [app take_while forallb] in *.
  - destruct rest as [|c r']; [reflexivity|]. cbn [take_while]. rewrite Hrest. reflexivity.
  - apply andb_prop in Hds as [Hd Hr]. rewrite Hd, (IH Hr). reflexivity.
Qed.

(** the value is the text unless it is a keyword of the generated table *)
Theorem ident_spec b r : is_ident_start b = true ->
  let run := b :: take_while is_ident_char r in
  lex1 (b :: r) = (match keyword_kind run with Some k => Tok k [] (length run) | None => Tok KIdentifier run (length run) end)
  /\ firstn (length run) (b :: r) = run
  /\ forallb is_ident_char (take_while is_ident_char r) = true
  /\ match skipn (length run) (b :: r) with [] => True | c :: _ => is_ident_char c = false end.
Proof.
  intros Hb. cbn zeta. split; [|split; [|split]].
  - apply lex1_view_eq, v_ident, Hb.
  - cbn [length firstn]. rewrite take_while_prefix. reflexivity.
  - apply take_while_all.
  - cbn [length skipn]. apply take_while_stop.
Qed.

Lemma keywords_documented :
  keyword_kind (L "and") = Some KAnd /\ keyword_kind (L "or") = Some KOr /\ keyword_kind (L "in") = Some KIn /\
  keyword_kind (L "by") = Some KBy /\ length keywords = 4.
Proof. vm_compute. repeat split. Qed.

(** [bq_quote s]: [s] between backticks, each backtick inside it doubled *)
Fixpoint bq_body (s : str) : str :=
  match s with [] => [] | c :: r => if (c =? 96)%N then 96%N :: 96%N :: bq_body r else c :: bq_body r end.
Definition bq_quote (s : str) : str := 96%N :: bq_body s ++ [96%N].

Definition no_newline (s : str) : Prop := forallb (fun c => negb (c =? 10)%N) s = true.

Lemma quoted_body_bq s : no_newline s -> forall rest f, (match rest with c :: _ => c <> 96%N | [] => True end) ->
  length (bq_body s ++ 96%N :: rest) < f ->
  quoted_body f (bq_body s ++ 96%N :: rest) = (Some (bq_body s), S (length (bq_body s))).
Proof.
  unfold no_newline. induction s as [|c r IH]; intros Hnl rest f Hrest Hf; cbn [bq_body app forallb] in *.
  - destruct f as [|f]; [lia|]. cbn [quoted_body]. rewrite ?N.eqb_refl.
    destruct rest as [|c2 r2]; [reflexivity|]. apply N.eqb_neq in Hrest. rewrite Hrest. reflexivity.
  - apply andb_prop in Hnl as [Hc Hr]. apply Bool.negb_true_iff in Hc.
    destruct (c =? 96)%N eqn:E96.
    + destruct f as [|f]; [cbn [length app] in Hf; lia|]. cbn [app quoted_body]. rewrite ?N.eqb_refl.
      rewrite (IH Hr rest f Hrest) by (cbn [length app] in Hf; lia). cbn [option_map length]. reflexivity.
    + destruct f as [|f]; [cbn [length app] in Hf; lia|]. cbn [app quoted_body]. rewrite E96, Hc.
      rewrite (IH Hr rest f Hrest) by (cbn [length app] in Hf; lia). cbn [option_map length]. reflexivity.
Qed.

Lemma undouble_bq s : forall f, length (bq_body s) <= f -> undouble f (bq_body s) = s.
Proof.
  induction s as [|c r IH]; intros f Hf; cbn [bq_body] in *.
  - destruct f; reflexivity.
  - destruct (c =? 96)%N eqn:E.
    + apply N.eqb_eq in E. subst c. destruct f as [|f]; [cbn [length] in Hf; lia|]. cbn [undouble]. rewrite ?N.eqb_refl.
      rewrite IH by (cbn [length] in Hf; lia). reflexivity.
    + destruct f as [|f]; [cbn [length] in Hf; lia|]. cbn [undouble]. rewrite E.
      rewrite IH by (cbn [length] in Hf; lia). reflexivity.
Qed.

Lemma lex1_backtick r : lex1 (96%N :: r) = lex_quoted (96%N :: r).
Proof. apply lex1_view_eq, v_quoted. Qed.

Theorem quoted_roundtrip s rest : no_newline s -> (match rest with c :: _ => c <> 96%N | [] => True end) ->
  lex1 (bq_quote s ++ rest) = Tok KQuotedIdentifier s (length (bq_quote s)).
Proof.
  intros Hnl Hrest. unfold bq_quote. cbn [app]. rewrite lex1_backtick.
  unfold lex_quoted. rewrite <- app_assoc. cbn [app].
  rewrite quoted_body_bq; [|exact Hnl|exact Hrest|cbn [length]; lia].
  rewrite undouble_bq by lia. cbn [length]. rewrite app_length. cbn [length]. f_equal. lia.
Qed.

Lemma dec_digits_app f : forall n acc, dec_digits f n acc = dec_digits f n [] ++ acc.
Proof.
  induction f as [|f IH]; intros n acc; cbn [dec_digits]; [reflexivity|].
  destruct (n / 10 =? 0)%N; [reflexivity|]. rewrite IH, (IH _ [(48 + n mod 10)%N]), <- app_assoc. reflexivity.
Qed.

Lemma dec_value_app a b : dec_value (a ++ b) = fold_left (fun acc c => (acc * 10 + (c - 48))%N) b (dec_value a).
Proof. unfold dec_value. apply fold_left_app. Qed.

Lemma dec_digits_value f : forall n, N.to_nat (N.log2 n) < f -> dec_value (dec_digits f n []) = n.
Proof.
  induction f as [|f IH]; intros n Hf; [lia|]. cbn [dec_digits].
  destruct (n / 10 =? 0)%N eqn:E.
  - apply N.eqb_eq in E. unfold dec_value. cbn [fold_left]. apply N.div_small_iff in E; lia.
  - apply N.eqb_neq in E. rewrite dec_digits_app, dec_value_app. cbn [fold_left].
    assert (Hm : (0 < n / 10)%N) by lia.
    rewrite IH.
    + pose proof (N.div_mod n 10 ltac:(lia)). lia.
    + (* log2 (n / 10) < log2 n *)
      assert (Hn : (0 < n)%N) by (destruct n; [cbn in E; congruence|lia]).
      pose proof (N.log2_spec n Hn) as [Hlo Hhi].
      assert (Hlt : (N.log2 (n / 10) < N.log2 n)%N).
      { apply N.log2_lt_pow2; [exact Hm|]. rewrite N.pow_succ_r' in Hhi.
        pose proof (N.mul_div_le n 10 ltac:(lia)). lia. }
      lia.
Qed.

Theorem N_to_dec_value n : dec_value (N_to_dec n) = n.
Proof. unfold N_to_dec. apply dec_digits_value. lia. Qed.

(** an error token over the whole literal when it does not fit in 64 bits *)
Theorem hex_spec x ds rest : (x = 120 \/ x = 88)%N -> ds <> [] -> forallb is_hex_digit ds = true ->
  (match rest with c :: _ => is_hex_digit c = false | [] => True end) ->
  lex1 (48%N :: x :: ds ++ rest) =
    (if (hex_value ds <? two64)%N then Tok KNumber (N_to_dec (hex_value ds)) (2 + length ds) else Tok KError [] (2 + length ds))
  /\ dec_value (N_to_dec (hex_value ds)) = hex_value ds.
Proof.
  intros Hx Hne Hds Hrest. split; [|apply N_to_dec_value].
  rewrite (lex1_view_eq _ _ (v_number 48%N _ eq_refl)), lex_number_eq.
  assert (Hh : hex_start (48%N :: x :: ds ++ rest) = true) by (destruct Hx; subst x; reflexivity).
  rewrite Hh. cbn [skipn]. unfold hex_item. rewrite (take_while_run _ ds rest Hds Hrest).
  destruct ds as [|d r]; [congruence|]. reflexivity.
Qed.

Lemma drop_zeros s : exists k, s = repeat 48%N k ++ drop_while (fun c => (c =? 48)%N) s /\
  match drop_while (fun c => (c =? 48)%N) s with c :: _ => c <> 48%N | [] => True end.
Proof.
  induction s as [|c r (k & E & Hh)]; cbn [drop_while].
  - exists 0. split; [reflexivity|exact I].
  - destruct (c =? 48)%N eqn:Ec.
    + apply N.eqb_eq in Ec. subst c. exists (S k). split; [cbn [repeat app]; f_equal; exact E|exact Hh].
    + exists 0. split; [reflexivity|]. apply N.eqb_neq in Ec. exact Ec.
Qed.

Theorem normalize_spec s : exists k rest, s = repeat 48%N k ++ rest /\
  (match rest with c :: _ => c <> 48%N | [] => True end) /\
  normalize_number s =
    match rest with
    | [] => [48%N]
    | c :: _ => if (c =? 46)%N || (c =? 101)%N || (c =? 69)%N then 48%N :: rest else rest
    end.
Proof.
  destruct (drop_zeros s) as (k & E & Hh). exists k, (drop_while (fun c => (c =? 48)%N) s).
  split; [exact E|]. split; [exact Hh|]. unfold normalize_number. destruct (drop_while _ s); reflexivity.
Qed.

Lemma dec_value_zeros k rest : dec_value (repeat 48%N k ++ rest) = dec_value rest.
Proof. induction k as [|k IH]; cbn [repeat app]; [reflexivity|]. unfold dec_value in *. cbn [fold_left]. exact IH. Qed.

Theorem normalize_integer_value s : forallb is_digit s = true -> dec_value (normalize_number s) = dec_value s.
Proof.
  intros Hd. destruct (normalize_spec s) as (k & rest & E & Hh & ->). rewrite E, dec_value_zeros.
  destruct rest as [|c r]; [reflexivity|].
  assert (Hc : is_digit c = true).
  { rewrite E, forallb_app in Hd. apply andb_prop in Hd as [_ Hd]. cbn [forallb] in Hd. apply andb_prop in Hd as [Hd _]. exact Hd. }
  assert (E2 : ((c =? 46)%N || (c =? 101)%N || (c =? 69)%N) = false) by (unfold is_digit, in_range in Hc; lia).
  rewrite E2. reflexivity.
Qed.

Definition op_table : list (str * kind) :=
  [(L ",", KComma); (L "|", KPipe); (L "(", KLParen); (L ")", KRParen); (L "[", KLBracket); (L "]", KRBracket);
   (L "+", KPlus); (L "-", KMinus); (L "*", KStar); (L "%", KMod); (L ";", KSemi);
   (L "==", KEq); (L "=~", KCaseInsensitiveEq); (L "!=", KNE); (L "!~", KCaseInsensitiveNE); (L "<=", KLE); (L ">=", KGE)].

Theorem operators_spec : forallb (fun sk => forallb (fun nxt =>
    match lex1 (fst sk ++ nxt) with Tok k v n => kind_eqb k (snd sk) && Nat.eqb n (length (fst sk)) && match v with [] => true | _ => false end | Skip _ => false end)
    [[]; [32%N]; [61%N]; [126%N]; [47%N]; [97%N]; [48%N]; [255%N]]) op_table = true.
Proof. vm_compute. reflexivity. Qed.

Theorem short_operators_spec :
  forallb (fun nxt => match lex1 (61%N :: nxt) with Tok KAssign [] 1 => true | _ => false end) [[]; [32%N]; [97%N]; [60%N]] = true
  /\ forallb (fun nxt => match lex1 (60%N :: nxt) with Tok KLT [] 1 => true | _ => false end) [[]; [32%N]; [97%N]; [62%N]] = true
  /\ forallb (fun nxt => match lex1 (62%N :: nxt) with Tok KGT [] 1 => true | _ => false end) [[]; [32%N]; [97%N]; [60%N]] = true
  /\ forallb (fun nxt => match lex1 (47%N :: nxt) with Tok KSlash [] 1 => true | _ => false end) [[]; [32%N]; [97%N]; [42%N]] = true
  /\ forallb (fun nxt => match lex1 (33%N :: nxt) with Tok KError [] 1 => true | _ => false end) [[]; [32%N]; [97%N]; [33%N]] = true.
Proof. vm_compute. repeat split. Qed.

Theorem operator_any_rest sp k rest : In (sp, k) op_table -> lex1 (sp ++ rest) = Tok k [] (length sp).
Proof. unfold op_table. cbn [In]. intros H. repeat destruct H as [[= <- <-]|H]; try contradiction; reflexivity. Qed.

(** a one-byte operator is one token unless the next byte makes a longer operator or a comment of it *)
Theorem short_operator_any_rest b k rest : In (b, k) op1 -> no_ext b rest -> lex1 (b :: rest) = Tok k [] 1.
Proof. intros Hin Hr. apply lex1_view_eq, v_op1; assumption. Qed.

Lemma firstn_length_le' {A} n (l : list A) : n <= length l -> length (firstn n l) = n.
Proof. apply firstn_length_le. Qed.

Lemma normalize_firstn_id m (l : str) : normalize_number (firstn m (firstn m l)) = normalize_number (firstn m l).
Proof. rewrite firstn_firstn, Nat.min_id. reflexivity. Qed.

(** the head item is the item of its own bytes alone ([l <> []] is not needed) *)
Theorem lex1_rescan l k v n : l <> [] -> lex1 l = Tok k v n -> lex1 (firstn n l) = Tok k v n.
Proof. intros _ E. rewrite lex1_firstn; [exact E|]. rewrite E. apply le_n. Qed.

Theorem token_rescan s t : In t (scan s) ->
  scan (slice s (tstart t) (tend t)) = [mkTok (tkind t) 0 (tend t - tstart t) (tvalue t)].
Proof.
  intros Hin. pose proof (scan_items s t Hin) as Hit. destruct (item_at_bounds s t Hit) as [Hne Hend].
  destruct Hit as (Hoff & Hlex & Hlt). unfold slice.
  set (l := skipn (tstart t) s) in *. set (n := tend t - tstart t) in *.
  assert (Hlen : length (firstn n l) = n) by (apply firstn_length_le; unfold l; rewrite skipn_length; lia).
  rewrite scan_eq, scan_at_step by (intros E; rewrite E in Hlen; cbn [length] in Hlen; lia).
  rewrite (lex1_rescan l _ _ _ Hne Hlex), skipn_all2, scan_at_nil, Nat.add_0_r by lia. reflexivity.
Qed.
