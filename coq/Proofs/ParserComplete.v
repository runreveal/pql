(** C07, completeness for expressions: for a tree [e] of the grammar with token sequence [used], the
    parser run on [used], followed by anything that cannot continue an expression, returns [e],
    consumes exactly [used] and reports no error. *)
From PQL Require Import Spec.Grammar Proofs.ParserSound Proofs.SplitSkip Proofs.ExprInd.
From Coq Require Import Lia ZArith.
Local Open Scope list_scope.
Local Open Scope nat_scope.
Local Notation length := List.length (only parsing).

Lemma op_prec_ge_m1 k : (-1 <= op_prec k)%Z.
Proof. destruct k; vm_compute; discriminate. Qed.

Definition not_cont (t : token) : Prop := tkind t <> KDot /\ tkind t <> KLParen /\ tkind t <> KLBracket.

Lemma prec_not_cont t : (0 <= op_prec (tkind t))%Z -> not_cont t.
Proof. unfold not_cont. destruct (tkind t); vm_compute; intros H; try (exfalso; apply H; reflexivity); repeat split; discriminate. Qed.

Lemma prec_in : op_prec KIn = 2%Z. Proof. reflexivity. Qed.

(** what may follow an expression of top level [h]: nothing, or a token that neither continues a
    primary ( . ( [ ) nor is a binary operator tighter than [h] *)
Definition follows (h : Z) (more : list token) : Prop :=
  match more with [] => True | t :: _ => not_cont t /\ (op_prec (tkind t) <= h)%Z end.

Definition not_cont_hd (more : list token) : Prop :=
  match more with [] => True | t :: _ => not_cont t end.

Lemma follows_weaken h h' more : (h <= h')%Z -> follows h more -> follows h' more.
Proof. destruct more as [|t r]; [trivial|]. intros Hh [H1 H2]. split; [exact H1|lia]. Qed.

Lemma follows_hd h more : follows h more -> not_cont_hd more.
Proof. destruct more; [trivial|]. intros [H _]. exact H. Qed.

Lemma lo_le_above e : (lo e <= above_all)%Z.
Proof. induction e; cbn [lo]; unfold above_all in *; try lia. Qed.

Lemma lo_le_hi e : (lo e <= hi e)%Z.
Proof. pose proof (lo_le_above e) as H. destruct e; cbn [lo hi] in *; lia. Qed.

Lemma mk_ident_eq i t : ident_tok i t -> mk_ident t = i.
Proof.
  destruct i as [n sp q]. unfold ident_tok, mk_ident, is_kind. cbn [iname ispan iquoted].
  intros (Hk & Hv & Hs). rewrite Hk, Hv, Hs. destruct q; reflexivity.
Qed.

(** with [Hk : tkind t = K], [rewrite !(is_kind_of _ _ t Hk); cbn [kind_eqb kind_code Z.eqb Pos.eqb]]
    decides every test of [t]'s kind in the goal *)
Lemma is_kind_of k k' t : tkind t = k' -> is_kind k t = kind_eqb k' k.
Proof. intros <-. reflexivity. Qed.
Lemma is_kind_true k t : tkind t = k -> is_kind k t = true.
Proof. intros <-. unfold is_kind. apply kind_eqb_refl. Qed.
Lemma is_kind_false k t : tkind t <> k -> is_kind k t = false.
Proof. intros H. unfold is_kind. apply kind_eqb_neq. exact H. Qed.

Lemma ident_tok_kind i t : ident_tok i t -> (is_kind KIdentifier t || is_kind KQuotedIdentifier t) = true.
Proof. intros (Hk & _). unfold is_kind. rewrite Hk. destruct (iquoted i); reflexivity. Qed.

Section Complete.
Variable srclen : nat.

Notation pexpr := (p_expr srclen).
Notation punary := (p_unary srclen).
Notation pprimary := (p_primary srclen).
Notation pinner := (p_inner srclen).
Notation plist := (p_expr_list srclen).
Notation ptail := (p_expr_list_tail srclen).
Notation ptrail := (p_trail srclen).
Notation phigher := (p_higher srclen).

Lemma p_ident_complete i t r : ident_tok i t -> p_ident srclen (t :: r) = (Some i, r, []).
Proof. intros H. unfold p_ident. rewrite (ident_tok_kind _ _ H), (mk_ident_eq _ _ H). reflexivity. Qed.

Definition no_dot_hd (more : list token) : Prop := match more with [] => True | t :: _ => tkind t <> KDot end.

Lemma p_qual_tail_stop more : no_dot_hd more -> p_qual_tail srclen more = ([], more, []).
Proof. destruct more as [|d r]; [reflexivity|]. cbn [no_dot_hd p_qual_tail]. intros H. rewrite (is_kind_false _ _ H). reflexivity. Qed.

Lemma qual_tail_complete ps ts : toks_qual ps ts -> forall more, no_dot_hd more ->
  exists i ps' t tr, ps = i :: ps' /\ ts = t :: tr /\ ident_tok i t /\ p_qual_tail srclen (tr ++ more) = (ps', more, []).
Proof.
  induction 1 as [i t Hi|i t d r tr Hi Hd _ IH]; intros more Hm.
  - exists i, [], t, []. split; [reflexivity|]. split; [reflexivity|]. split; [exact Hi|]. cbn [app]. apply p_qual_tail_stop. exact Hm.
  - destruct (IH more Hm) as (i' & ps' & t' & tr' & -> & -> & Hi' & Ht).
    exists i, (i' :: ps'), t, (d :: t' :: tr'). split; [reflexivity|]. split; [reflexivity|]. split; [exact Hi|].
    cbn [app p_qual_tail]. rewrite (is_kind_true _ _ Hd), (ident_tok_kind _ _ Hi'), Ht, (mk_ident_eq _ _ Hi'). reflexivity.
Qed.

Lemma p_qualified_complete ps ts more : toks_qual ps ts -> no_dot_hd more ->
  p_qualified srclen (ts ++ more) = (Some ps, more, []).
Proof.
  intros H Hm. destruct (qual_tail_complete _ _ H more Hm) as (i & ps' & t & tr & -> & -> & Hi & Ht).
  unfold p_qualified. cbn [app]. rewrite (p_ident_complete _ _ _ Hi), Ht. reflexivity.
Qed.

Definition inner_follow (more : list token) : Prop :=
  match more with [] => True | t :: _ => tkind t <> KDot /\ tkind t <> KLParen end.

Lemma not_cont_inner more : not_cont_hd more -> inner_follow more.
Proof. destruct more; [trivial|]. intros (H1 & H2 & _). split; assumption. Qed.

(** One statement per parser function, proved together by induction on the tree.  A token costs at most
    the four nested calls [p_expr] > [p_unary] > [p_primary] > [p_inner]; the constant is the function's
    place in that chain. *)
Definition Full (e : expr) : Prop := forall used rest f, toks_expr e used -> gexpr e = true -> follows (-1) rest ->
  4 * length used + 4 <= f -> pexpr f (used ++ rest) = (Some e, rest, []).

Definition Inner (e : expr) : Prop := forall used more f, is_inner e = true -> toks_expr e used -> gexpr e = true ->
  inner_follow more -> 4 * length used + 1 <= f -> pinner f (used ++ more) = (Some e, more, []).

Definition Primary (e : expr) : Prop := forall used more f, is_primary e = true -> toks_expr e used -> gexpr e = true ->
  not_cont_hd more -> 4 * length used + 2 <= f -> pprimary f (used ++ more) = (Some e, more, []).

Definition Operand (e : expr) : Prop := forall used more f, is_operand e = true -> toks_expr e used -> gexpr e = true ->
  not_cont_hd more -> 4 * length used + 3 <= f -> punary f (used ++ more) = (Some e, more, []).

(** nothing, or the one trailing comma a call allows *)
Definition list_rest (rest : list token) : Prop := rest = [] \/ exists c, rest = [c] /\ tkind c = KComma.

Lemma pexpr_nil f : 2 <= f -> pexpr f [] = (None, [], nf_at srclen).
Proof. destruct f as [|[|f]]; [lia|lia|]. intros _. rewrite p_expr_S, p_unary_S. reflexivity. Qed.

Lemma ptail_stop rest f : list_rest rest -> 4 <= f -> ptail f rest = (Some [], rest, []).
Proof.
  intros [->|(c & -> & Hc)] Hf; (destruct f as [|f]; [lia|]); rewrite p_expr_list_tail_S.
  - reflexivity.
  - rewrite (is_kind_true _ _ Hc), pexpr_nil by lia. reflexivity.
Qed.

Lemma comma_follows c r : tkind c = KComma -> follows (-1) (c :: r).
Proof. intros H. cbn [follows]. unfold not_cont. rewrite H. repeat split; discriminate. Qed.

Lemma list_complete vs tvs : toks_list vs tvs -> Forall Full vs -> forallb gexpr vs = true ->
  forall rest f, list_rest rest -> 4 * length tvs + 5 <= f ->
  plist f (tvs ++ rest) = (Some vs, rest, []) /\
  (forall c, tkind c = KComma -> ptail f (c :: tvs ++ rest) = (Some vs, rest, [])).
Proof.
  induction 1 as [e te He|e te c r tr He Hc Hr IH Hne]; intros HF Hg rest f Hrest Hf.
  - apply Forall_inv in HF. cbn [forallb] in Hg. apply andb_prop in Hg as [Hg _].
    assert (Hx : forall f', 4 * length te + 4 <= f' -> pexpr f' (te ++ rest) = (Some e, rest, [])).
    { intros f' Hf'. apply HF; try assumption. destruct Hrest as [->|(c & -> & Hc)]; [exact I|apply comma_follows; exact Hc]. }
    split.
    + destruct f as [|f]; [lia|]. rewrite p_expr_list_S, Hx by lia. cbn [no_err negb]. rewrite ptail_stop by (assumption || lia). reflexivity.
    + intros c Hc. destruct f as [|f]; [lia|]. rewrite p_expr_list_tail_S, (is_kind_true _ _ Hc), Hx by lia.
      cbn [is_nf existsb no_err negb]. rewrite ptail_stop by (assumption || lia). reflexivity.
  - pose proof (Forall_inv HF) as HFe. apply Forall_inv_tail in HF. cbn [forallb] in Hg. apply andb_prop in Hg as [Hge Hgr].
    rewrite app_length in Hf. cbn [length] in Hf.
    destruct (IH HF Hgr rest (pred f) Hrest ltac:(lia)) as [_ IHt]. specialize (IHt c Hc).
    assert (Hx : forall f', 4 * length te + 4 <= f' -> pexpr f' (te ++ c :: tr ++ rest) = (Some e, c :: tr ++ rest, [])).
    { intros f' Hf'. apply HFe; try assumption. apply comma_follows; exact Hc. }
    split.
    + destruct f as [|f]; [lia|]. rewrite <- app_assoc. cbn [app]. rewrite p_expr_list_S, Hx by lia. cbn [no_err negb pred] in *.
      rewrite IHt. reflexivity.
    + intros c0 Hc0. destruct f as [|f]; [lia|]. rewrite <- app_assoc. cbn [app].
      rewrite p_expr_list_tail_S, (is_kind_true _ _ Hc0), Hx by lia.
      cbn [is_nf existsb no_err negb pred] in *. rewrite IHt. reflexivity.
Qed.

Lemma lo_nonneg e : forall used, toks_expr e used -> (0 <= lo e)%Z.
Proof.
  induction e; intros used H; inversion H; subst; cbn [lo]; try (unfold above_all; lia).
  - match goal with Hx : toks_expr e1 _ |- _ => apply IHe1 in Hx end. lia.
  - match goal with Hx : toks_expr e _ |- _ => apply IHe in Hx end. rewrite prec_in. lia.
Qed.

Lemma inner_qual ps : Inner (EQual ps).
Proof.
  intros used more f _ Ht _ Hm Hf. inversion Ht as [ps0 ts Hq| | | | | | |]; subst.
  assert (Hnd : no_dot_hd more) by (destruct more; [exact I|apply Hm]).
  pose proof (p_qualified_complete _ _ more Hq Hnd) as HQ.
  destruct (qual_tail_complete _ _ Hq more Hnd) as (i & ps' & t & tr & -> & -> & Hi & _).
  destruct f as [|f]; [lia|]. rewrite p_inner_S. cbn [app] in *.
  destruct Hi as (Hk & Hv & Hs). destruct (iquoted i) eqn:Eq.
  - rewrite !(is_kind_of _ _ t Hk). cbn [kind_eqb kind_code Z.eqb Pos.eqb orb]. rewrite HQ. reflexivity.
  - rewrite !(is_kind_of _ _ t Hk). cbn [kind_eqb kind_code Z.eqb Pos.eqb orb]. rewrite HQ. destruct ps' as [|j ps'']; [|reflexivity].
    destruct more as [|lp r2]; [reflexivity|]. destruct Hm as [_ Hlp]. rewrite (is_kind_false _ _ Hlp). reflexivity.
Qed.

Lemma inner_lit sp k v : Inner (ELit sp k v).
Proof.
  intros used more f _ Ht _ _ Hf. inversion Ht as [|sp0 k0 v0 t Hor Hk Hv Hs| | | | | |]; subst.
  destruct f as [|f]; [lia|]. rewrite p_inner_S. cbn [app].
  assert (E : (is_kind KNumber t || is_kind KString t) = true).
  { destruct Hor as [E|E]; unfold is_kind; rewrite E; reflexivity. }
  rewrite E. reflexivity.
Qed.

Lemma inner_paren l x r : Full x -> Inner (EParen l x r).
Proof.
  intros HF used more f _ Ht Hg _ Hf. inversion Ht as [| | | | |lsp x0 rsp tl tx tr Hl Hx Hr| |]; subst.
  cbn [gexpr] in Hg. cbn [length] in Hf. rewrite app_length in Hf. cbn [length] in Hf.
  destruct f as [|f]; [lia|]. rewrite p_inner_S. cbn [app]. destruct Hl as [Hlk Hls]. destruct Hr as [Hrk Hrs].
  rewrite !(is_kind_of _ _ tl Hlk). cbn [kind_eqb kind_code Z.eqb Pos.eqb orb]. rewrite <- app_assoc. cbn [app].
  rewrite (split_at_closer KRParen tx tr more (or_introl eq_refl) (expr_skips0 _ _ Hx) Hrk).
  pose proof (HF tx [] f Hx Hg I ltac:(lia)) as HX. rewrite app_nil_r in HX. rewrite HX.
  cbn [opaque map end_split app]. rewrite (is_kind_true _ _ Hrk). cbn [when_ok no_err option_map]. subst. reflexivity.
Qed.

Lemma plist_nil f : 3 <= f -> plist f [] = (None, [], nf_at srclen).
Proof. destruct f as [|f]; [lia|]. intros H. rewrite p_expr_list_S, pexpr_nil by lia. reflexivity. Qed.

Lemma inner_call fn l args r : Forall Full args -> Inner (ECall fn l args r).
Proof.
  intros HF used more f _ Ht Hg _ Hf. inversion Ht as [| | | | | |f0 lsp a0 rsp tf tl targs tr Hfn Hq Hl Ha Hr|]; subst.
  cbn [gexpr] in Hg. cbn [length] in Hf. rewrite app_length in Hf. cbn [length] in Hf.
  destruct f as [|f]; [lia|]. rewrite p_inner_S. cbn [app]. destruct Hl as [Hlk Hls]. destruct Hr as [Hrk Hrs].
  pose proof Hfn as (Hk & Hv & Hs). rewrite Hq in Hk. rewrite !(is_kind_of _ _ tf Hk). cbn [kind_eqb kind_code Z.eqb Pos.eqb orb].
  assert (HQ : p_qualified srclen (tf :: tl :: (targs ++ [tr]) ++ more) = (Some [fn], tl :: (targs ++ [tr]) ++ more, [])).
  { apply (p_qualified_complete [fn] [tf] (tl :: (targs ++ [tr]) ++ more)); [constructor; exact Hfn|]. cbn [no_dot_hd]. rewrite Hlk. discriminate. }
  rewrite HQ. rewrite (is_kind_true _ _ Hlk). rewrite <- app_assoc. cbn [app].
  rewrite (split_at_closer KRParen targs tr more (or_introl eq_refl) (args_skips0 _ _ Ha) Hrk).
  inversion Ha as [|a1 ts Hlst Hne|a1 ts c Hlst Hne Hc]; subst.
  - rewrite plist_nil by lia. cbn [is_nf existsb nf_at enf orb end_split app]. rewrite (is_kind_true _ _ Hrk).
    cbn [when_ok no_err option_map]. subst. reflexivity.
  - destruct (list_complete _ _ Hlst HF Hg [] f (or_introl eq_refl) ltac:(lia)) as [HL _]. rewrite app_nil_r in HL. rewrite HL.
    cbn [is_nf existsb no_err end_split app]. rewrite (is_kind_true _ _ Hrk).
    cbn [when_ok no_err option_map]. subst. reflexivity.
  - rewrite app_length in Hf. cbn [length] in Hf.
    destruct (list_complete _ _ Hlst HF Hg [c] f (or_intror (ex_intro _ c (conj eq_refl Hc))) ltac:(lia)) as [HL _]. rewrite HL.
    cbn [is_nf existsb no_err]. rewrite (is_kind_true _ _ Hc). cbn [end_split app]. rewrite (is_kind_true _ _ Hrk).
    cbn [when_ok no_err option_map]. subst. reflexivity.
Qed.

Lemma primary_inner e : is_inner e = true -> Inner e -> Primary e.
Proof.
  intros Hi HI used more f _ Ht Hg Hm Hf. destruct f as [|f]; [lia|]. rewrite p_primary_S.
  rewrite (HI used more f Hi Ht Hg (not_cont_inner _ Hm) ltac:(lia)). cbn [no_err negb].
  destruct more as [|t r2]; [reflexivity|]. destruct Hm as (_ & _ & Hb). rewrite (is_kind_false _ _ Hb). reflexivity.
Qed.

Lemma primary_index x l i r : Inner x -> Full i -> Primary (EIndex x l i r).
Proof.
  intros HI HF used more f Hp Ht Hg _ Hf. inversion Ht as [| | | | | | |x0 lsp i0 rsp tx tl ti tr Hx Hl Hi Hr]; subst.
  cbn [is_primary] in Hp. cbn [gexpr] in Hg. apply andb_prop in Hg as [Hg Hgi]. apply andb_prop in Hg as [_ Hgx].
  rewrite !app_length in Hf. cbn [length] in Hf. rewrite app_length in Hf. cbn [length] in Hf.
  destruct Hl as [Hlk Hls]. destruct Hr as [Hrk Hrs].
  destruct f as [|f]; [lia|]. rewrite p_primary_S. rewrite <- !app_assoc. cbn [app]. rewrite <- app_assoc. cbn [app].
  rewrite (HI tx (tl :: ti ++ tr :: more) f Hp Hx Hgx) by (cbn [inner_follow]; try rewrite Hlk; try (split; discriminate); lia).
  cbn [no_err negb]. rewrite (is_kind_true _ _ Hlk).
  rewrite (split_at_closer KRBracket ti tr more (or_intror eq_refl) (expr_skips0 _ _ Hi) Hrk).
  pose proof (HF ti [] f Hi Hgi I ltac:(lia)) as HX. rewrite app_nil_r in HX. rewrite HX.
  cbn [opaque map end_split app]. rewrite (is_kind_true _ _ Hrk). cbn [when_ok no_err opt_map2]. subst. reflexivity.
Qed.

Lemma inner_first e used : is_inner e = true -> toks_expr e used ->
  exists t r, used = t :: r /\ tkind t <> KPlus /\ tkind t <> KMinus.
Proof.
  intros Hi Ht. destruct Ht; try discriminate.
  - match goal with H : toks_qual _ _ |- _ => destruct H as [i t H|i t d r tr H] end;
      eexists _, _; (split; [reflexivity|]); destruct H as (Hk & _); rewrite Hk; destruct (iquoted i); split; discriminate.
  - eexists _, _. split; [reflexivity|]. match goal with H : tkind _ = _ , Hor : _ \/ _ |- _ => rewrite H; destruct Hor; subst; split; discriminate end.
  - eexists _, _. split; [reflexivity|]. match goal with H : is_tok KLParen _ _ |- _ => destruct H as [H _]; rewrite H end. split; discriminate.
  - eexists _, _. split; [reflexivity|]. match goal with H : ident_tok ?f _, Hq : iquoted ?f = false |- _ => destruct H as (H & _); rewrite Hq in H; rewrite H end. split; discriminate.
Qed.

Lemma primary_first e used : is_primary e = true -> toks_expr e used ->
  exists t r, used = t :: r /\ tkind t <> KPlus /\ tkind t <> KMinus.
Proof.
  intros Hp Ht. destruct e as [ps|a b c d|a b c|a b c d g|a b c|a b c|a b c d|x0 lb i0 rb]; cbn [is_primary] in Hp; try discriminate; try (eapply inner_first; [exact Hp|exact Ht]).
  inversion Ht; subst.
  match goal with Hx : toks_expr ?xx _, Hq : is_inner ?xx = true |- _ => destruct (inner_first _ _ Hq Hx) as (t & r & -> & H) end.
  eexists _, _. split; [reflexivity|exact H].
Qed.

Lemma operand_primary e : is_primary e = true -> Primary e -> Operand e.
Proof.
  intros Hp HP used more f _ Ht Hg Hm Hf. destruct f as [|f]; [lia|]. rewrite p_unary_S.
  destruct (primary_first _ _ Hp Ht) as (t & r & E & Hplus & Hminus).
  assert (Hp' := HP used more f Hp Ht Hg Hm ltac:(lia)). subst used. cbn [app] in *.
  rewrite (is_kind_false _ _ Hplus), (is_kind_false _ _ Hminus). cbn [orb]. exact Hp'.
Qed.

Lemma operand_unary sp op x : Primary x -> Operand (EUnary sp op x).
Proof.
  intros HP used more f Ho Ht Hg Hm Hf. inversion Ht as [| |sp0 op0 x0 t tx Hor Htk Hx| | | | |]; subst.
  cbn [is_operand] in Ho. cbn [gexpr] in Hg. apply andb_prop in Hg as [_ Hg]. cbn [length] in Hf.
  destruct f as [|f]; [lia|]. rewrite p_unary_S. cbn [app]. destruct Htk as [Hk Hs].
  assert (E : (is_kind KPlus t || is_kind KMinus t) = true).
  { destruct Hor as [E|E]; unfold is_kind; rewrite Hk, E; reflexivity. }
  rewrite E. rewrite (HP tx more f Ho Hx Hg Hm ltac:(lia)). cbn [when_ok no_err option_map opaque map]. subst. reflexivity.
Qed.

(** [p_trail] reads an expression as its leftmost operand followed by items, each a binary operator
    with its right operand or an `in` test. *)
Inductive item : Type :=
| IBin (sp : span) (op : kind) (y : expr)
| IIn (isp lsp : span) (vs : list expr) (rsp : span).

Definition attach (x : expr) (it : item) : expr :=
  match it with IBin sp op y => EBin x sp op y | IIn isp lsp vs rsp => EIn x isp lsp vs rsp end.

Definition level (it : item) : Z :=
  match it with IBin _ op _ => op_prec op | IIn _ _ _ _ => op_prec KIn end.

Lemma lo_attach x it : lo (attach x it) = Z.min (level it) (lo x).
Proof. destruct it; reflexivity. Qed.

(** one turn of the loop on the tokens [ts] of [it] *)
Definition Step (it : item) (ts more : list token) : Prop := forall x m f, (m <= level it)%Z -> 4 * length ts <= f ->
  ptrail (S f) (Some x) m (ts ++ more) =
    let '(v, r, e) := ptrail f (Some (attach x it)) m more in (when_ok e v, r, e).

Inductive Items (m : Z) (more : list token) : list item -> list token -> Prop :=
| items_nil : Items m more [] []
| items_cons it t r its tss : (m <= level it)%Z -> Step it (t :: r) (tss ++ more) -> Items m more its tss ->
    Items m more (it :: its) (t :: r ++ tss).

Lemma ptrail_stop x m more f : follows (m - 1) more -> 1 <= f -> ptrail f (Some x) m more = (Some x, more, []).
Proof.
  intros Hm Hf. destruct f as [|f]; [lia|]. rewrite p_trail_S. destruct more as [|t r]; [reflexivity|].
  destruct Hm as [_ Hm]. cbn zeta.
  destruct (op_prec (tkind t) <? 0)%Z eqn:E1; [reflexivity|]. cbn [orb].
  destruct (op_prec (tkind t) <? m)%Z eqn:E2; [reflexivity|]. apply Z.ltb_ge in E2. lia.
Qed.

Lemma trail_items m more its tss : Items m more its tss -> follows (m - 1) more -> forall x f, 4 * length tss + 1 <= f ->
  ptrail f (Some x) m (tss ++ more) = (Some (fold_left attach its x), more, []).
Proof.
  induction 1 as [|it t r its tss Hm Hs _ IH]; intros Hend x f Hf.
  - apply ptrail_stop; [exact Hend|lia].
  - cbn [length] in Hf. rewrite app_length in Hf. destruct f as [|f]; [lia|].
    cbn [app]. rewrite <- app_assoc. change (t :: r ++ tss ++ more) with ((t :: r) ++ tss ++ more).
    rewrite (Hs x m f Hm) by (cbn [length]; lia). rewrite (IH Hend) by lia. reflexivity.
Qed.

Lemma phigher_stop y p more f : follows p more -> 1 <= f -> phigher f (Some y) p more = (Some y, more, []).
Proof.
  intros Hm Hf. destruct f as [|f]; [lia|]. rewrite p_higher_S. destruct more as [|t r]; [reflexivity|].
  destruct Hm as [_ Hm]. cbn zeta.
  destruct (op_prec (tkind t) <? 0)%Z eqn:E1; [reflexivity|]. cbn [orb].
  destruct (op_prec (tkind t) <=? p)%Z eqn:E2; [reflexivity|]. apply Z.leb_gt in E2. lia.
Qed.

(** [p_higher] has the result of the one run of [p_trail] at level [p + 1] it makes, or none: both
    test the first token in the same way *)
Lemma phigher_of_trail y0 y p ts more f : follows p more -> 1 <= f ->
  ptrail f (Some y0) (p + 1) ts = (Some y, more, []) -> phigher (S f) (Some y0) p ts = (Some y, more, []).
Proof.
  intros Hm Hf H. rewrite p_higher_S. destruct f as [|f]; [lia|]. destruct ts as [|t r]; [rewrite p_trail_S in H; exact H|].
  cbn zeta. destruct ((op_prec (tkind t) <? 0)%Z || (op_prec (tkind t) <=? p)%Z) eqn:E.
  - rewrite p_trail_S in H. cbn zeta in H. replace (op_prec (tkind t) <? p + 1)%Z with (op_prec (tkind t) <=? p)%Z in H
      by (destruct (Z.leb_spec (op_prec (tkind t)) p), (Z.ltb_spec (op_prec (tkind t)) (p + 1)); lia).
    rewrite E in H. exact H.
  - rewrite H, phigher_stop by (assumption || lia). reflexivity.
Qed.

(** [used] is the tokens [u0] of the leftmost operand [x0] of [e], then those of the items that make
    [e] of it; the loop, started on [x0], attaches them and the items [its] that come next *)
Definition Spine (e : expr) (used : list token) : Prop :=
  exists x0 u0 ui, used = u0 ++ ui /\
    (forall more f, not_cont_hd more -> 4 * length u0 + 3 <= f -> punary f (u0 ++ ui ++ more) = (Some x0, ui ++ more, [])) /\
    (forall m its tss more f, (m <= lo e)%Z -> follows (hi e) (tss ++ more) -> Items m more its tss -> follows (m - 1) more ->
       4 * length (ui ++ tss) + 1 <= f -> ptrail f (Some x0) m (ui ++ tss ++ more) = (Some (fold_left attach its e), more, [])).

Definition Chain (e : expr) : Prop := forall used, toks_expr e used -> gexpr e = true -> Spine e used.

Lemma chain_operand e : is_operand e = true -> Operand e -> Chain e.
Proof.
  intros Ho HO used Ht Hg. exists e, used, []. split; [rewrite app_nil_r; reflexivity|]. split.
  - intros more f Hm Hf. apply HO; assumption.
  - intros m its tss more f _ _ Hits Hend Hf. exact (trail_items m more its tss Hits Hend e f Hf).
Qed.

Lemma spine_attach x it t r tx : Spine x tx -> (0 <= level it)%Z -> (level it <= hi x)%Z -> op_prec (tkind t) = level it ->
  (forall more, follows (hi (attach x it)) more -> Step it (t :: r) more) -> Spine (attach x it) (tx ++ t :: r).
Proof.
  intros (x0 & u0 & ui & -> & Ha & Hb) H0 Hhi Ht HS.
  assert (Hnext : forall rest, follows (hi x) (t :: rest)) by (split; [apply prec_not_cont|]; rewrite Ht; assumption).
  exists x0, u0, (ui ++ t :: r). split; [rewrite <- app_assoc; reflexivity|]. split.
  - intros more f _ Hf. rewrite <- app_assoc. apply Ha; [exact (proj1 (Hnext []))|exact Hf].
  - intros m its tss more f Hm Hfol Hits Hend Hf. rewrite lo_attach in Hm. rewrite <- app_assoc in Hf |- *.
    pose proof (Hb m (it :: its) (t :: r ++ tss) more f) as H. cbn [app] in H. rewrite <- app_assoc in H.
    apply H; try assumption; [lia|apply Hnext|].
    constructor; [lia|apply HS; exact Hfol|exact Hits].
Qed.

(** the right operand of an operator of level [p] *)
Lemma higher_of_chain y : Chain y -> forall uy p more f, toks_expr y uy -> gexpr y = true ->
  (p < lo y)%Z -> follows p more -> 4 * length uy + 4 <= f ->
  exists y0 r1, punary f (uy ++ more) = (Some y0, r1, []) /\ phigher f (Some y0) p r1 = (Some y, more, []).
Proof.
  intros HC uy p more f Ht Hg Hp Hm Hf.
  destruct (HC uy Ht Hg) as (y0 & u0 & ui & -> & Ha & Hb).
  rewrite app_length in Hf. exists y0, (ui ++ more). rewrite <- app_assoc. split.
  - apply Ha; [eapply follows_hd; exact Hm|lia].
  - destruct f as [|f]; [lia|]. apply phigher_of_trail; [exact Hm|lia|].
    apply (Hb (p + 1)%Z [] [] more f); [lia| |constructor| |rewrite app_nil_r; lia].
    + eapply follows_weaken; [|exact Hm]. pose proof (lo_le_hi y). lia.
    + replace (p + 1 - 1)%Z with p by lia. exact Hm.
Qed.

Lemma chain_bin x sp op y : Chain x -> Chain y -> Chain (EBin x sp op y).
Proof.
  intros HCx HCy used Ht Hg. inversion Ht as [| | |x0 sp0 op0 y0 tx t ty Hprec Hnin Hx Htk Hy| | | |]; subst.
  cbn [gexpr] in Hg. apply andb_prop in Hg as [Hg Hlo]. apply andb_prop in Hg as [Hg Hhi]. apply andb_prop in Hg as [Hgx Hgy].
  apply Z.leb_le in Hhi. apply Z.ltb_lt in Hlo. destruct Htk as [Hk Hs].
  apply (spine_attach x (IBin sp op y)); cbn [level]; [auto|assumption|assumption|rewrite Hk; reflexivity|].
  intros more Hfol z m f Hm Hf. cbn [level attach hi length] in *. rewrite p_trail_S. cbn [app]. cbn zeta. rewrite Hk.
  replace (op_prec op <? 0)%Z with false by (symmetry; apply Z.ltb_ge; lia).
  replace (op_prec op <? m)%Z with false by (symmetry; apply Z.ltb_ge; lia).
  cbn [orb]. rewrite (is_kind_false KIn t) by (rewrite Hk; exact Hnin).
  destruct (higher_of_chain y HCy ty (op_prec op) more f Hy Hgy Hlo Hfol ltac:(lia)) as (y0 & r1 & Hu & Hh).
  rewrite Hu, Hh. cbn [opaque map app when_ok no_err opt_map2]. rewrite Hs. reflexivity.
Qed.

Lemma chain_in x isp lsp vs rsp : Chain x -> Forall Full vs -> Chain (EIn x isp lsp vs rsp).
Proof.
  intros HCx HFv used Ht Hg. inversion Ht as [| | | |x0 i0 l0 v0 r0 tx ti tl tvs tr Hx Hi Hl Hvs Hne Hr| | |]; subst.
  cbn [gexpr] in Hg. apply andb_prop in Hg as [Hg Hhi]. apply andb_prop in Hg as [Hgx Hgv]. apply Z.leb_le in Hhi.
  destruct Hi as [Hik His]. destruct Hl as [Hlk Hls]. destruct Hr as [Hrk Hrs].
  apply (spine_attach x (IIn isp lsp vs rsp)); cbn [level]; [auto|discriminate|assumption|rewrite Hik; reflexivity|].
  intros more _ z m f Hm Hf. cbn [level attach length] in *. rewrite app_length in Hf. cbn [length] in Hf.
  rewrite p_trail_S. cbn [app]. rewrite <- app_assoc. cbn [app]. cbn zeta. rewrite Hik.
  replace (op_prec KIn <? m)%Z with false by (symmetry; apply Z.ltb_ge; lia).
  replace (op_prec KIn <? 0)%Z with false by reflexivity. cbn [orb].
  rewrite (is_kind_true KIn ti Hik), (is_kind_true _ _ Hlk).
  rewrite (split_at_closer KRParen tvs tr more (or_introl eq_refl) (list_skips0 _ _ Hvs) Hrk).
  destruct (list_complete _ _ Hvs HFv Hgv [] f (or_introl eq_refl) ltac:(lia)) as [HL _]. rewrite app_nil_r in HL. rewrite HL.
  cbn [opaque map end_split app]. rewrite (is_kind_true _ _ Hrk). cbn [when_ok no_err opt_map2]. rewrite His, Hls, Hrs. reflexivity.
Qed.

Lemma full_chain e : Chain e -> Full e.
Proof.
  intros HC used rest f Ht Hg Hrest Hf. pose proof (lo_nonneg e _ Ht) as Hlo. pose proof (lo_le_hi e) as Hhi.
  destruct (HC used Ht Hg) as (x0 & u0 & ui & -> & Ha & Hb).
  rewrite app_length in Hf. destruct f as [|f]; [lia|]. rewrite p_expr_S, <- app_assoc.
  rewrite Ha by (lia || eapply follows_hd; exact Hrest). cbn [is_nf existsb].
  pose proof (Hb 0%Z [] [] rest f Hlo) as H. cbn [app fold_left] in H.
  rewrite H; [reflexivity| |constructor|exact Hrest|rewrite app_nil_r; lia].
  eapply follows_weaken; [|exact Hrest]. lia.
Qed.

(** [Inner], [Primary] and [Operand] hold vacuously of a tree of a looser class *)
Definition All (e : expr) : Prop := Inner e /\ Primary e /\ Operand e /\ Chain e /\ Full e.

Lemma all_of_chain e : is_operand e = false -> Chain e -> All e.
Proof.
  intros Ho HC. assert (Hp : is_primary e = false) by (destruct e; (reflexivity || exact Ho)).
  assert (Hi : is_inner e = false) by (destruct e; (reflexivity || exact Hp)).
  repeat split; try exact HC; try (apply full_chain, HC); intros ? ? ? E; congruence.
Qed.

Lemma all_of_operand e : Inner e -> Primary e -> Operand e -> (gexpr e = true -> is_operand e = true) -> All e.
Proof.
  intros HI HP HO Hg. assert (HC : Chain e) by (intros used Ht G; exact (chain_operand e (Hg G) HO used Ht G)).
  repeat split; try assumption. apply full_chain, HC.
Qed.

Lemma all_of_inner e : is_inner e = true -> Inner e -> All e.
Proof.
  intros Hi HI. assert (Hp : is_primary e = true) by (destruct e; (discriminate Hi || reflexivity)).
  assert (Ho : is_operand e = true) by (destruct e; (discriminate Hi || reflexivity)).
  pose proof (primary_inner e Hi HI) as HP. apply all_of_operand; auto using operand_primary.
Qed.

Lemma Forall_full vs : Forall All vs -> Forall Full vs.
Proof. apply Forall_impl. intros a Ha. apply Ha. Qed.

Theorem expr_complete_all e : All e.
Proof.
  induction e as [ps|x sp op y IHx IHy|sp op x IHx|x isp lsp vs rsp IHx IHvs|l x r IHx|sp k v|fn l args r IHargs|x l i r IHx IHi] using expr_ind'.
  - apply all_of_inner; [reflexivity|apply inner_qual].
  - apply all_of_chain; [reflexivity|]. apply chain_bin; [apply IHx|apply IHy].
  - apply all_of_operand; try (intros ? ? ? E; discriminate E); [apply operand_unary, IHx|].
    cbn [gexpr is_operand]. intros G. apply andb_prop in G as [G _]. exact G.
  - apply all_of_chain; [reflexivity|]. apply chain_in; [apply IHx|apply Forall_full, IHvs].
  - apply all_of_inner; [reflexivity|]. apply inner_paren, IHx.
  - apply all_of_inner; [reflexivity|apply inner_lit].
  - apply all_of_inner; [reflexivity|]. apply inner_call, Forall_full, IHargs.
  - pose proof (primary_index x l i r (proj1 IHx) (proj2 (proj2 (proj2 (proj2 IHi))))) as HP.
    apply all_of_operand; try (intros ? ? ? E; discriminate E); [exact HP| |].
    + intros used more f Ho. apply operand_primary; [exact Ho|exact HP|exact Ho].
    + cbn [gexpr is_operand is_primary]. intros G. apply andb_prop in G as [G _]. apply andb_prop in G as [G _]. exact G.
Qed.

Theorem p_expr_complete e used rest f : toks_expr e used -> gexpr e = true -> follows (-1) rest ->
  4 * length used + 4 <= f -> pexpr f (used ++ rest) = (Some e, rest, []).
Proof. intros. apply (proj2 (proj2 (proj2 (proj2 (expr_complete_all e))))); assumption. Qed.

Theorem p_expr_list_complete vs tvs rest f : toks_list vs tvs -> forallb gexpr vs = true -> list_rest rest ->
  4 * length tvs + 5 <= f -> plist f (tvs ++ rest) = (Some vs, rest, []).
Proof.
  intros Hl Hg Hr Hf. apply list_complete; try assumption.
  apply Forall_forall. intros a _. apply (proj2 (proj2 (proj2 (proj2 (expr_complete_all a))))).
Qed.

End Complete.
