(** * Compile calls as threads over the package-level state, every interleaving (property C14,
    Props/C14.v).  Threads may perform exactly the steps the code can take: the guarded
    once-initialisation, reads, and a write through any listed site ([write_sites], from the
    translator) that is not that initialisation.  The table lists no such site, so every read in
    every interleaving observes the initialised value: a call's result does not depend on the
    schedule or on earlier calls. *)
From PQL Require Import Model.Base Gen.Shared Proofs.SharedFacts.
Local Open Scope list_scope.
Local Open Scope nat_scope.

Section Machine.
Variable V : Type.
Variable table : V.                      (* what initKnownFunctions assigns to knownFunctions.m *)
Variable sites : list write_site.        (* the write sites of the code *)

Record shared := mkShared { cell : option V; once_done : bool }.
Definition shared0 : shared := mkShared None false.

Inductive act :=
| AOnce                                  (* knownFunctions.init.Do(initKnownFunctions) *)
| ARead                                  (* a read of knownFunctions.m *)
| AWrite (w : write_site) (v : V).       (* a write through another listed site *)

Definition step (s : shared) (a : act) : shared * option (option V) :=
  match a with
  | AOnce => if once_done s then (s, None) else (mkShared (Some table) true, None)
  | ARead => (s, Some (cell s))
  | AWrite _ v => (mkShared (Some v) (once_done s), None)
  end.

(** writes only through listed sites other than the initialisation; reads only after [AOnce]
    (pql.go calls init.Do at the top of the only function that reads knownFunctions.m) *)
Definition allowed (a : act) : Prop :=
  match a with AWrite w _ => In w sites /\ site_is_once_init w = false | _ => True end.

Fixpoint reads_guarded (seen_once : bool) (prog : list act) : Prop :=
  match prog with
  | [] => True
  | AOnce :: r => reads_guarded true r
  | ARead :: r => seen_once = true /\ reads_guarded seen_once r
  | AWrite _ _ :: r => reads_guarded seen_once r
  end.

Record thread := mkThread { prog : list act; passed : bool }.

Definition wf_thread (t : thread) : Prop := Forall allowed (prog t) /\ reads_guarded (passed t) (prog t).

(** thread [i] takes its next step (nothing if it has finished or does not exist);
    observations are (thread, value read) *)
Fixpoint nth_upd {A} (l : list A) (i : nat) (f : A -> A) : list A :=
  match l, i with
  | [], _ => []
  | x :: r, O => f x :: r
  | x :: r, S j => x :: nth_upd r j f
  end.

Definition sched_step (st : shared * list thread * list (nat * option V)) (i : nat) : shared * list thread * list (nat * option V) :=
  let '(s, ths, obs) := st in
  match nth_error ths i with
  | Some t =>
    match prog t with
    | a :: r =>
      let '(s', o) := step s a in
      let t' := mkThread r (match a with AOnce => true | _ => passed t end) in
      (s', nth_upd ths i (fun _ => t'), match o with Some v => obs ++ [(i, v)] | None => obs end)
    | [] => st
    end
  | None => st
  end.

Definition run (sched : list nat) (ths : list thread) : shared * list thread * list (nat * option V) :=
  fold_left sched_step sched (shared0, ths, []).

(** the invariant: once some thread has passed its AOnce, the cell holds the table *)
Definition inv (st : shared * list thread * list (nat * option V)) : Prop :=
  let '(s, ths, obs) := st in
  Forall wf_thread ths /\
  (once_done s = true -> cell s = Some table) /\
  (Exists (fun t => passed t = true) ths -> once_done s = true) /\
  Forall (fun o => snd o = Some table) obs.

Hypothesis only_init : forallb site_is_once_init sites = true.

Lemma no_other_write w v : ~ allowed (AWrite w v).
Proof.
  intros [Hin Hno]. rewrite forallb_forall in only_init. rewrite (only_init _ Hin) in Hno. discriminate.
Qed.

Lemma nth_upd_Forall {A} (P : A -> Prop) l i f : Forall P l -> (forall x, P x -> P (f x)) -> Forall P (nth_upd l i f).
Proof.
  intros H Hf. revert i. induction H as [|x r Hx Hr IH]; intros i; [constructor|].
  destruct i; cbn; constructor; auto.
Qed.

Lemma nth_upd_Exists {A} (P : A -> Prop) l i (y : A) : Exists P (nth_upd l i (fun _ => y)) -> P y \/ Exists P l.
Proof.
  revert i. induction l as [|x r IH]; intros i H; [inversion H|].
  destruct i; cbn in H.
  - inversion H; subst; [left; assumption|right; apply Exists_cons_tl; assumption].
  - inversion H; subst; [right; apply Exists_cons_hd; assumption|].
    destruct (IH _ H1) as [Hy|Hr]; [left; exact Hy|right; apply Exists_cons_tl; exact Hr].
Qed.

Lemma inv_step st i : inv st -> inv (sched_step st i).
Proof.
  destruct st as [[s ths] obs]. intros (Hwf & Hcell & Hpassed & Hobs). unfold sched_step.
  destruct (nth_error ths i) as [t|] eqn:Et; [|repeat split; assumption].
  apply nth_error_In in Et. destruct (proj1 (Forall_forall _ _) Hwf t Et) as [Hall Hguard].
  destruct (prog t) as [|a r] eqn:Ep; [repeat split; assumption|].
  inversion Hall as [|a0 r0 Ha Hr]; subst.
  destruct a as [| |w v].
  - cbn [step]. cbn [reads_guarded] in Hguard.
    assert (Hths : Forall wf_thread (nth_upd ths i (fun _ => mkThread r true))).
    { apply nth_upd_Forall; [exact Hwf|]. intros _ _. split; [exact Hr|exact Hguard]. }
    destruct (once_done s) eqn:Ed.
    + split; [exact Hths|]. split; [intros _; apply Hcell; reflexivity|]. split; [intros _; exact Ed|exact Hobs].
    + split; [exact Hths|]. split; [intros _; reflexivity|]. split; [intros _; reflexivity|exact Hobs].
  - (* read *) cbn [step]. cbn [reads_guarded] in Hguard. destruct Hguard as [Hp Hguard].
    assert (Hd : once_done s = true) by (apply Hpassed, Exists_exists; exists t; split; assumption).
    repeat split; try assumption.
    + apply nth_upd_Forall; [exact Hwf|]. intros _ _. split; [exact Hr|exact Hguard].
    + intros Hex. apply nth_upd_Exists in Hex as [Hy|Hex]; [exact Hd|apply Hpassed; exact Hex].
    + apply Forall_app. split; [exact Hobs|]. constructor; [cbn; apply Hcell; exact Hd|constructor].
  - (* impossible: the table lists none *)
    exfalso. exact (no_other_write _ _ Ha).
Qed.

Lemma inv_run : forall sched st, inv st -> inv (fold_left sched_step sched st).
Proof. induction sched as [|i r IH]; intros st H; [exact H|]. cbn [fold_left]. apply IH. apply inv_step. exact H. Qed.

(** Every value any call reads, in any interleaving, is the initialised table. *)
Theorem reads_see_the_table sched ths : Forall wf_thread ths -> Forall (fun t => passed t = false) ths ->
  Forall (fun o => snd o = Some table) (snd (run sched ths)).
Proof.
  intros Hwf Hfresh. unfold run.
  assert (Hinv : inv (shared0, ths, [])).
  { repeat split; [exact Hwf|discriminate| |constructor].
    intros Hex. apply Exists_exists in Hex as (t & Hin & Hp). rewrite Forall_forall in Hfresh. rewrite (Hfresh _ Hin) in Hp. discriminate. }
  pose proof (inv_run sched _ Hinv) as H. destruct (fold_left sched_step sched (shared0, ths, [])) as [[s ths'] obs].
  destruct H as (_ & _ & _ & Hobs). exact Hobs.
Qed.
End Machine.

Theorem compile_calls_do_not_interfere (V : Type) (table : V) sched ths :
  Forall (wf_thread V write_sites) ths -> Forall (fun t => passed V t = false) ths ->
  Forall (fun o => snd o = Some table) (snd (run V table sched ths)).
Proof. apply reads_see_the_table. exact shared_writes_only_once_init. Qed.
