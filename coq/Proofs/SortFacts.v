(** * Sort-term defaults and the order of summarize's columns (property C02, Props/C02.v). *)
From PQL Require Import Model.Compile Spec.FlattenStmt.
From Coq Require Import String.
Local Open Scope list_scope.

(** [toks_sort_term] (Spec/FlattenStmt.v) is the grammar the parser is proved against: without
    `asc`/`desc` a term is descending; without `nulls first`/`nulls last` nulls come first exactly
    when it is ascending. *)
Theorem sort_term_defaults t ts : toks_sort_term t ts ->
  (st_ascspan t = None -> st_asc t = false) /\ (st_nullsspan t = None -> st_nullsfirst t = st_asc t).
Proof.
  intros H. destruct H as [x asc asp dflt nf nsp tx ta tn Hx Hd Hn]. cbn [st_asc st_ascspan st_nullsfirst st_nullsspan].
  split.
  - intros E. destruct Hd as [|sp t0 (Hk & Hv & Hs)|sp t0 (Hk & Hv & Hs)]; [reflexivity| |]; subst; discriminate.
  - intros E. destruct Hn as [|t1 t2 _ _|t1 t2 _ _]; try discriminate.
    destruct Hd; reflexivity.
Qed.

Theorem sort_term_rendering c t px : wexpr c (st_x t) = Ok px ->
  write_sort c [t] = Ok (lit " ORDER BY " ++ px ++ (if st_asc t then lit " ASC" else lit " DESC")
                          ++ (if st_nullsfirst t then lit " NULLS FIRST" else lit " NULLS LAST")).
Proof. intros H. unfold write_sort. cbn [map sequence bind]. rewrite H. cbn [bind join_pieces]. reflexivity. Qed.

Theorem summarize_keys_first source c n src p k cols b gs g cs gb :
  write_ext_cols source c gs = Ok g -> write_ext_cols source c cols = Ok cs ->
  (match gs with
   | [] => Ok []
   | _ => do ks <- sequence (map (fun col => wexpr c (ec_x col)) gs); Ok (lit " GROUP BY " ++ join_pieces (lit ", ") ks)
   end) = Ok gb ->
  write_subq source c (mkSubq n src (Some (OSummarize p k cols b gs)) None None) =
  Ok ((lit "SELECT " ++ join_pieces (lit ", ") (g ++ cs) ++ lit " FROM " ++ render_source src ++ gb) ++ [] ++ []).
Proof.
  intros Hg Hc Hb. unfold write_subq. cbn [sq_op sq_source sq_sort sq_take]. rewrite Hg. cbn [bind]. rewrite Hc. cbn [bind].
  rewrite Hb. reflexivity.
Qed.
