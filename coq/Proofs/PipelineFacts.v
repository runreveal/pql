(** * The subqueries built by splitQueries denote the pipeline applied left to right (property
    C02, Props/C02.v).  Pipelines without joins: no assumption on names is needed. *)
From PQL Require Import Spec.PipeSem Proofs.ExprInd Proofs.WriterEqns Proofs.SplitSteps.
Local Open Scope list_scope.
Local Notation length := List.length (only parsing).

Section Pipeline.
Variable F : fenv.
Variable ev : bool -> env -> expr -> value.
Variable source : str.
Variable sc : scope.
Variable db0 : database.
Variable src : ident.

Notation evalS := (eval_subqs F ev source db0 None).
Notation eval1 := (eval_subq F ev source).
(** [apply o cur] below is this function applied to an operator and a table, not the tactic *)
Notation apply := (apply_op F ev source).

Definition is_join (o : operator) : bool := match o with OJoin _ _ _ _ _ _ _ _ _ _ _ => true | _ => false end.

Lemma eval_subqs_app l1 : forall db last l2,
  eval_subqs F ev source db last (l1 ++ l2) =
  match eval_subqs F ev source db last l1 with
  | Some (db', last') => eval_subqs F ev source db' last' l2
  | None => None
  end.
Proof.
  induction l1 as [|s r IH]; intros db last l2; cbn [app eval_subqs]; [reflexivity|].
  destruct (eval_subq F ev source db s); [apply IH|reflexivity].
Qed.

Lemma eval_subqs_snoc dst0 s d0 l0 v : evalS dst0 = Some (d0, l0) -> eval1 d0 s = Some v ->
  evalS (dst0 ++ [s]) = Some ((sq_name s, v) :: d0, Some v).
Proof. intros H0 H1. rewrite eval_subqs_app, H0. cbn [eval_subqs]. rewrite H1. reflexivity. Qed.

Lemma lookup_head {A} (n : str) (v : A) d : lookup ((n, v) :: d) n = Some v.
Proof. cbn [lookup]. rewrite str_eqb_refl. reflexivity. Qed.

(** the invariant: the last subquery denotes the table so far *)
Inductive inv : list subq -> table -> Prop :=
| inv_nil cur : lookup db0 (iname src) = Some cur -> inv [] cur
| inv_snoc dst0 s d0 l0 cur :
    evalS dst0 = Some (d0, l0) -> eval1 d0 s = Some cur -> inv (dst0 ++ [s]) cur.

Lemma fresh_reads dst cur : inv dst cur ->
  exists d l, evalS dst = Some (d, l) /\ lookup d (left_source 0 src dst) = Some cur.
Proof.
  intros [cur' H | dst0 s d0 l0 cur' H0 H1].
  - exists db0, None. split; [reflexivity|exact H].
  - exists ((sq_name s, cur') :: d0), (Some cur'). split.
    + exact (eval_subqs_snoc _ _ _ _ _ H0 H1).
    + unfold left_source, last_name. rewrite length_snoc, last_opt_snoc. apply lookup_head.
Qed.

Lemma eval1_decorate_fresh d o nm n cur : is_join o = false -> lookup d n = Some cur ->
  eval1 d (decorate o (mkSubq nm (SrcName n) None None None)) = Some (apply o cur).
Proof. intros Hj H. destruct o; try discriminate Hj; unfold eval_subq; cbn [decorate sq_source eval_source]; rewrite H; reflexivity. Qed.

(** ORDER BY and LIMIT are evaluated after the subquery's own operator, the limit last: hence no
    limit yet ([Ht]) and, for sort and top, no sort ([Hs]) *)
Lemma eval1_decorate_last d o st s cur : lands_on_last o st = true -> attachable o s ->
  eval1 d s = Some cur -> eval1 d (decorate o s) = Some (apply o cur).
Proof.
  intros Hl (_ & Ht & Hs). unfold eval_subq.
  destruct o; try discriminate Hl; cbn [decorate sq_source sq_op]; (destruct (eval_source ev d (sq_source s)); [|discriminate]);
    intros [= <-]; unfold finish_subq; cbn [sq_sort sq_take apply_op]; rewrite Ht, ?Hs; reflexivity.
Qed.

Lemma step dst cur o : inv dst cur -> is_join o = false ->
  forall dst', split_op sc 0 src dst o = Ok dst' -> inv dst' (apply o cur).
Proof.
  intros Hinv Hj dst' Hs. rewrite (split_op_plain _ _ _ _ _ Hj) in Hs. injection Hs as <-.
  destruct (lands_on_last o (state_of dst 0)) eqn:El.
  - destruct (lands_on_last_spec _ _ _ El) as (init & s & -> & _ & Ha). rewrite set_last_snoc.
    inversion Hinv as [|dst0 s0 d0 l0 cur0 H0 H1 E]; [destruct init; discriminate|]. apply app_inj_tail in E as [-> ->].
    eapply inv_snoc; [exact H0|]. eapply eval1_decorate_last; eassumption.
  - destruct (fresh_reads dst cur Hinv) as (d & l & Hd & Hr). rewrite chain_subquery_eq.
    eapply inv_snoc; [exact Hd|]. apply eval1_decorate_fresh; assumption.
Qed.

Fixpoint apply_all (ops : list operator) (cur : table) : table :=
  match ops with [] => cur | o :: r => apply_all r (apply o cur) end.

Lemma steps ops : forall dst cur, inv dst cur -> forallb (fun o => negb (is_join o)) ops = true ->
  forall dst', fold_res (split_op sc 0 src) ops dst = Ok dst' -> inv dst' (apply_all ops cur).
Proof.
  induction ops as [|o r IH]; intros dst cur Hinv Hnj dst' Hf; cbn [fold_res apply_all] in *.
  - injection Hf as <-. exact Hinv.
  - apply andb_prop in Hnj as [Ho Hr]. apply Bool.negb_true_iff in Ho.
    destruct (split_op sc 0 src dst o) as [dst1|p] eqn:E; cbn [bind] in Hf; [|discriminate].
    eapply IH; [eapply step; eassumption|exact Hr|exact Hf].
Qed.

(** without joins the pipeline interpreter is the fold of [apply_op] *)
Lemma run_ops_no_join ops : forall db cur, forallb (fun o => negb (is_join o)) ops = true ->
  option_map snd (run_ops F ev source sc db cur ops) = Some (apply_all ops cur).
Proof.
  induction ops as [|o r IH]; intros db cur Hnj; cbn [run_ops apply_all]; [reflexivity|].
  cbn [forallb] in Hnj. apply andb_prop in Hnj as [Ho Hr].
  destruct o; try discriminate; cbn [run_op]; apply IH; exact Hr.
Qed.

Lemma inv_eval dst cur : inv dst cur -> dst <> [] -> eval_statement F ev source db0 dst = Some cur.
Proof.
  intros [cur' H | dst0 s d0 l0 cur' H0 H1] Hne; [congruence|].
  unfold eval_statement. rewrite (eval_subqs_snoc _ _ _ _ _ H0 H1). reflexivity.
Qed.

Lemma inv_ensure_one dst cur : inv dst cur -> inv (ensure_one 0 src dst) cur.
Proof.
  intros H. unfold ensure_one. destruct (Nat.eqb (length dst) 0); [|exact H].
  destruct (fresh_reads dst cur H) as (d & l & Hd & Hr). rewrite chain_subquery_eq.
  eapply inv_snoc; [exact Hd|]. unfold eval_subq. cbn [sq_source eval_source]. rewrite Hr. reflexivity.
Qed.

Theorem split_queries_denotes_pipeline t subqs :
  forallb (fun o => negb (is_join o)) (tops t) = true -> tsrc t = src ->
  split_queries sc [] t = Ok subqs ->
  forall r, run_pipeline F ev source sc db0 t = Some r -> eval_statement F ev source db0 subqs = Some r.
Proof.
  intros Hnj Hsrc Hs r Hr. rewrite split_queries_eq, Hsrc in Hs. cbn [length] in Hs. apply bind_ok in Hs as (dst1 & Ef & [= <-]).
  unfold run_pipeline in Hr. rewrite Hsrc in Hr.
  destruct (lookup db0 (iname src)) as [base|] eqn:Eb; [|discriminate].
  rewrite (run_ops_no_join (tops t) db0 base Hnj) in Hr. injection Hr as <-.
  apply inv_eval; [apply inv_ensure_one, (steps (tops t) [] base (inv_nil base Eb) Hnj dst1 Ef)|apply ensure_one_nonempty].
Qed.

End Pipeline.
