(** * No token of a statement is a semicolon, so cutting a program's tokens at the semicolons
    ([semi_pieces]) gives back its statements and the empty pieces between them. *)
From PQL Require Import Spec.FlattenStmt Proofs.ParserSound Proofs.ParserReject.
Local Open Scope list_scope.

Definition nosemi_tok (t : token) : Prop := tkind t <> KSemi.
Definition all_nosemi (ts : list token) : Prop := Forall nosemi_tok ts.

Lemma stmt_nosemi s ts : toks_stmt s ts -> all_nosemi ts.
Proof. intros H. eapply Forall_impl; [|exact (stmt_not_error_semi s ts H)]. intros t. apply proj2. Qed.

Fixpoint semi_pieces (ts : list token) : list (list token) :=
  match ts with
  | [] => [[]]
  | t :: r =>
    if is_kind KSemi t then [] :: semi_pieces r
    else match semi_pieces r with p :: ps => (t :: p) :: ps | [] => [[t]] end
  end.

Lemma semi_pieces_last a : all_nosemi a -> semi_pieces a = [a].
Proof.
  induction 1 as [|t a Ht _ IH]; [reflexivity|]. cbn [semi_pieces].
  destruct (is_kind KSemi t) eqn:E; [apply is_kind_eq in E; contradiction|]. rewrite IH. reflexivity.
Qed.

Lemma semi_pieces_cut a semi r : all_nosemi a -> tkind semi = KSemi -> semi_pieces (a ++ semi :: r) = a :: semi_pieces r.
Proof.
  intros Ha Hs. induction Ha as [|t a Ht _ IH]; cbn [app semi_pieces].
  - unfold is_kind. rewrite Hs. reflexivity.
  - destruct (is_kind KSemi t) eqn:E; [apply is_kind_eq in E; contradiction|]. rewrite IH. reflexivity.
Qed.
