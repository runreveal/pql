(** White space and comments between tokens do not change the tokens.  [lex1_fwd]: a token read from a
    text [a] is read unchanged when a neutral byte (ASCII white space, semicolon) and anything else
    follows [a], since look-ahead stops there.  [scan_spaced]: token texts laid out with gaps scan to
    those tokens' kinds and values.  [same_texts_same_kv]: kind and value are functions of the text. *)
From PQL Require Import Model.Lexer Proofs.LexerFacts Proofs.SplitFacts Proofs.LexCut Proofs.ScanCut Proofs.LexSpec.
From Coq Require Import Lia ZifyBool ZifyNat ZifyN.
Local Open Scope list_scope.
Local Open Scope nat_scope.
Local Notation length := List.length (only parsing).

(** an error at the end of [r] is left out: more text may repair it *)
Lemma str_elem_fwd q x r b : neutral x -> r <> [] ->
  match str_elem q r with SErr _ => True | e => str_elem q (r ++ x :: b) = e end.
Proof.
  intros Hx Hr. unfold str_elem. rewrite (decode_cut x r b Hx Hr).
  pose proof (decode_width r Hr) as Hw. destruct (decode r) as [c w]. cbn [snd] in Hw.
  destruct (c =? q)%N; [reflexivity|]. destruct (c =? 10)%N; [exact I|].
  rewrite skipn_app_le, firstn_app_le by lia.
  destruct (c =? 92)%N; [|reflexivity]. cbv zeta.
  destruct (skipn w r) as [|c1 r1] eqn:Es; [exact I|]. cbn [app].
  change (c1 :: r1 ++ x :: b) with ((c1 :: r1) ++ x :: b).
  rewrite (decode_cut x (c1 :: r1) b Hx ltac:(discriminate)).
  pose proof (decode_width (c1 :: r1) ltac:(discriminate)) as Hw1. destruct (decode (c1 :: r1)) as [c2 w2]. cbn [snd] in Hw1.
  destruct (c2 =? 10)%N; [exact I|]. rewrite firstn_app_le by lia. reflexivity.
Qed.

Lemma string_body_fwd q x b : neutral x -> forall f esc r v n,
  string_body f q esc r = (Some v, n) -> forall f', length (r ++ x :: b) < f' ->
  string_body f' q esc (r ++ x :: b) = (Some v, n).
Proof.
  intros Hx. induction f as [|f IH]; intros esc r v n H f' Hf'; [discriminate|].
  destruct r as [|c0 r0] eqn:Er; [discriminate|]. rewrite <- Er in *.
  assert (Hr : r <> []) by (rewrite Er; discriminate). clear Er c0 r0.
  destruct f' as [|f']; [lia|].
  rewrite (string_body_step f q esc r Hr) in H. rewrite string_body_step by apply app_cons_not_nil.
  pose proof (str_elem_fwd q x r b Hx Hr) as He. pose proof (str_elem_line q r Hr) as Hl. pose proof (comment_len_le r).
  destruct (str_elem q r) as [w|w|out w e]; [rewrite He; exact H|discriminate|]. rewrite He.
  rewrite skipn_app_le by lia.
  destruct (string_body f q (e || esc) (skipn w r)) as [[v0|] m] eqn:Eb; cbn [option_map] in H; [|discriminate].
  rewrite (IH _ _ v0 m Eb f'); [exact H|].
  rewrite app_length, skipn_length. rewrite app_length in Hf'. cbn [length] in *. lia.
Qed.

Lemma quoted_body_fwd x b : neutral x -> forall f r v n,
  quoted_body f r = (Some v, n) -> forall f', length (r ++ x :: b) < f' ->
  quoted_body f' (r ++ x :: b) = (Some v, n).
Proof.
  intros Hx. assert (Hx96 : (x =? 96)%N = false) by (neutral_cases Hx; reflexivity).
  induction f as [|f IH]; intros r v n H f' Hf'; [discriminate|].
  destruct r as [|c r]; [discriminate|]. destruct f' as [|f']; [lia|].
  cbn [quoted_body] in H. cbn [app quoted_body]. cbn [app length] in Hf'.
  destruct (c =? 96)%N.
  - destruct r as [|c2 r2]; cbn [app].
    + rewrite Hx96. exact H.
    + destruct (c2 =? 96)%N; [|exact H].
      destruct (quoted_body f r2) as [[v0|] m] eqn:Eb; cbn [option_map] in H; [|discriminate].
      rewrite (IH r2 v0 m Eb f'); [exact H|cbn [app length] in Hf'; lia].
  - destruct (c =? 10)%N; [discriminate|].
    destruct (quoted_body f r) as [[v0|] m] eqn:Eb; cbn [option_map] in H; [|discriminate].
    rewrite (IH r v0 m Eb f'); [exact H|lia].
Qed.

Lemma lex_string_fwd x a b k v n : neutral x ->
  lex_string a = Tok k v n -> k <> KError -> lex_string (a ++ x :: b) = Tok k v n.
Proof.
  intros Hx H Hk. destruct a as [|q r]; [discriminate|]. cbn [app lex_string] in *.
  destruct (string_body (S (length r)) q false r) as [[v0|] m] eqn:Eb.
  - rewrite (string_body_fwd q x b Hx _ _ _ _ _ Eb); [exact H|lia].
  - injection H as <- _ _. congruence.
Qed.

Lemma lex_quoted_fwd x a b k v n : neutral x ->
  lex_quoted a = Tok k v n -> k <> KError -> lex_quoted (a ++ x :: b) = Tok k v n.
Proof.
  intros Hx H Hk. destruct a as [|q r]; [discriminate|]. cbn [app lex_quoted] in *.
  destruct (quoted_body (length (q :: r)) r) as [[v0|] m] eqn:Eb.
  - rewrite (quoted_body_fwd x b Hx _ _ _ _ Eb); [exact H|cbn [length]; lia].
  - injection H as <- _ _. congruence.
Qed.

Theorem lex1_fwd x a b k v n : neutral x -> lex1 a = Tok k v n -> k <> KError -> lex1 (a ++ x :: b) = Tok k v n.
Proof.
  intros Hx H Hk. destruct a as [|c0 r0] eqn:Ea; [discriminate|]. rewrite <- Ea in *.
  assert (Ha : a <> []) by (rewrite Ea; discriminate). clear Ea c0 r0.
  pose proof (lex1_viewP a Ha) as V. rewrite H in V. remember (Tok k v n) as i eqn:Ei in V.
  destruct V as [l _ Hs|c r Hc|c r Hc|q r Hq|r|r|c c2 k0 r Hin|c k0 r Hin Hr|l _ Hs Hb]; try discriminate Ei; cbn [app].
  - rewrite (lex1_view_eq _ _ (v_ident c _ Hc)). change (c :: r ++ x :: b) with ((c :: r) ++ x :: b).
    rewrite (lex_ident_cut x (c :: r) b Hx Ha). exact Ei.
  - rewrite (lex1_view_eq _ _ (v_number c _ Hc)), lex_number_cut by exact Hx. exact Ei.
  - rewrite (lex1_view_eq _ _ (v_string q _ Hq)). apply (lex_string_fwd x (q :: r) b k v n Hx); [exact Ei|exact Hk].
  - rewrite (lex1_view_eq _ _ (v_quoted _)). apply (lex_quoted_fwd x (96%N :: r) b k v n Hx); [exact Ei|exact Hk].
  - rewrite (lex1_view_eq _ _ (v_op2 c c2 k0 _ Hin)). exact Ei.
  - (* a neutral byte completes no operator *)
    assert (Hr' : no_ext c (r ++ x :: b)) by (destruct r; [|exact Hr]; unfold no_ext, extends; neutral_cases Hx; cbn; lia).
    rewrite (lex1_view_eq _ _ (v_op1 c k0 _ Hin Hr')). exact Ei.
  - injection Ei as <- _ _. congruence.
Qed.

Definition ws (x : N) : Prop := x = 10%N \/ x = 32%N \/ x = 9%N \/ x = 13%N.

Lemma ws_neutral x : ws x -> neutral x.
Proof. unfold ws, neutral. intros [->|[->|[->| ->]]]; auto. Qed.

(** one ASCII white-space byte, or a // comment up to and including its newline *)
Inductive lunit : str -> Prop :=
| lu_ws x : ws x -> lunit [x]
| lu_comment body : ~ In 10%N body -> lunit (47%N :: 47%N :: body ++ [10%N]).

Inductive gap : str -> Prop :=
| gap_nil : gap []
| gap_cons u g : lunit u -> gap g -> gap (u ++ g).

(** a gap that separates begins with a white-space byte *)
Definition sep_gap (g : str) : Prop := exists x g', g = x :: g' /\ ws x /\ gap g'.

Lemma comment_len_body body rest : ~ In 10%N body -> comment_len (body ++ 10%N :: rest) = S (length body).
Proof.
  induction body as [|c r IH]; intros Hn; cbn [app comment_len length]; [reflexivity|].
  destruct (c =? 10)%N eqn:E; [apply N.eqb_eq in E; subst c; exfalso; apply Hn; left; reflexivity|].
  rewrite IH; [reflexivity|]. intros Hin. apply Hn. right. exact Hin.
Qed.

Lemma lex1_ws x rest : ws x -> lex1 (x :: rest) = Skip 1.
Proof. intros [->|[->|[->| ->]]]; reflexivity. Qed.

Lemma lex1_comment body rest : ~ In 10%N body -> lex1 (47%N :: 47%N :: body ++ 10%N :: rest) = Skip (3 + length body).
Proof.
  intros Hn. unfold lex1. change (decode (47%N :: 47%N :: body ++ 10%N :: rest)) with (47%N, 1).
  cbv beta iota. change (is_space 47) with false. change (is_ident_start 47) with false. cbn [N.eqb Pos.eqb is_digit in_range orb andb N.leb N.compare Pos.compare Pos.compare_cont].
  rewrite comment_len_body by exact Hn. reflexivity.
Qed.

Lemma lunit_skip u rest : lunit u -> u <> [] /\ lex1 (u ++ rest) = Skip (length u).
Proof.
  intros [x Hx|body Hn].
  - split; [discriminate|]. cbn [app length]. apply lex1_ws; exact Hx.
  - split; [discriminate|]. cbn [app length]. rewrite <- app_assoc. cbn [app]. rewrite lex1_comment by exact Hn.
    rewrite app_length. cbn [length]. f_equal. lia.
Qed.

Lemma scan_gap g : gap g -> forall rest off, scan_at off (g ++ rest) = scan_at (length g + off) rest.
Proof.
  induction 1 as [|u g Hu _ IH]; intros rest off; [reflexivity|].
  destruct (lunit_skip u (g ++ rest) Hu) as [Hne Hl]. rewrite <- app_assoc.
  rewrite scan_at_step by (destruct u; [congruence|discriminate]).
  rewrite Hl, skipn_app_le, skipn_all by lia. cbn [app]. rewrite IH, app_length. f_equal. lia.
Qed.

Definition item_ok (x : str) (k : kind) (v : str) : Prop := lex1 x = Tok k v (length x) /\ k <> KError.

Inductive spaced : list (str * kind * str) -> str -> Prop :=
| sp_nil : spaced [] []
| sp_last x k v : item_ok x k v -> spaced [(x, k, v)] x
| sp_cons x k v g items s : item_ok x k v -> sep_gap g -> spaced items s -> spaced ((x, k, v) :: items) (x ++ g ++ s).

Definition tok_kvl (t : token) : kind * str * nat := (tkind t, tvalue t, tend t - tstart t).
Definition item_kvl (i : str * kind * str) : kind * str * nat := let '(x, k, v) := i in (k, v, length x).

Lemma item_ok_nonempty x k v : item_ok x k v -> x <> [].
Proof. intros [H _] ->. discriminate H. Qed.

Lemma scan_spaced_from items s : spaced items s -> forall off, map tok_kvl (scan_at off s) = map item_kvl items.
Proof.
  assert (Hkvl : forall x k v off, tok_kvl (mkTok k off (length x + off) v) = item_kvl (x, k, v))
    by (intros; unfold tok_kvl, item_kvl; cbn [tkind tvalue tstart tend]; do 2 f_equal; lia).
  induction 1 as [|x k v Hok|x k v g items s Hok (x0 & g' & -> & Hx0 & Hg') _ IH]; intros off.
  - reflexivity.
  - pose proof (item_ok_nonempty _ _ _ Hok) as Hne. destruct Hok as [Hl _].
    rewrite scan_at_step, Hl, skipn_all, scan_at_nil by exact Hne. cbn [map]. rewrite Hkvl. reflexivity.
  - pose proof (item_ok_nonempty _ _ _ Hok) as Hne. destruct Hok as [Hl Hk]. cbn [app].
    rewrite scan_at_step by (destruct x; [congruence|discriminate]).
    rewrite (lex1_fwd x0 x (g' ++ s) k v (length x) (ws_neutral _ Hx0) Hl Hk).
    rewrite skipn_app_le, skipn_all by lia. cbn [app map]. rewrite Hkvl. f_equal.
    change (x0 :: g' ++ s) with (([x0] ++ g') ++ s).
    rewrite (scan_gap ([x0] ++ g') (gap_cons [x0] g' (lu_ws x0 Hx0) Hg')). apply IH.
Qed.

Theorem scan_spaced g0 items s : gap g0 -> spaced items s -> map tok_kvl (scan (g0 ++ s)) = map item_kvl items.
Proof. intros Hg Hs. rewrite scan_eq, (scan_gap g0 Hg). apply scan_spaced_from, Hs. Qed.

Definition tok_text (s : str) (t : token) : str := slice s (tstart t) (tend t).

Lemma token_kv_of_text s t : In t (scan s) -> lex1 (tok_text s t) = Tok (tkind t) (tvalue t) (length (tok_text s t)).
Proof.
  intros Hin. pose proof (scan_items s t Hin) as Hit. destruct (item_at_bounds s t Hit) as [Hne Hend].
  destruct Hit as (Hoff & Hlex & Hlt). unfold tok_text, slice.
  rewrite (lex1_rescan _ _ _ _ Hne Hlex), firstn_length, skipn_length. f_equal. lia.
Qed.

Theorem same_texts_same_kv s1 s2 : map (tok_text s1) (scan s1) = map (tok_text s2) (scan s2) ->
  Forall2 (fun t t' => tkind t = tkind t' /\ tvalue t = tvalue t') (scan s1) (scan s2).
Proof.
  pose proof (token_kv_of_text s1) as H1. pose proof (token_kv_of_text s2) as H2.
  revert H1 H2. generalize (scan s1) (scan s2). intros l1. induction l1 as [|t l1 IH]; intros [|t' l2] H1 H2 Hm; try discriminate; [constructor|].
  cbn [map] in Hm. injection Hm as Ht Hm. constructor.
  - pose proof (H1 t (or_introl eq_refl)) as E1. pose proof (H2 t' (or_introl eq_refl)) as E2. rewrite Ht in E1. rewrite E1 in E2.
    injection E2 as -> ->. split; reflexivity.
  - apply IH; [intros u Hu; apply H1; right; exact Hu|intros u Hu; apply H2; right; exact Hu|exact Hm].
Qed.

Lemma scanned_item_ok s t : In t (scan s) -> tkind t <> KError -> item_ok (tok_text s t) (tkind t) (tvalue t).
Proof. intros Hin Hk. split; [apply token_kv_of_text; exact Hin|exact Hk]. Qed.
