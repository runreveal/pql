(** * Locality (property C15, Props/C15.v): each piece of SplitStatements scanned on its own
    yields exactly the tokens it has inside the whole source. *)
From PQL Require Import Model.Lexer Proofs.LexerFacts Proofs.SplitFacts Proofs.LexCut Proofs.ScanCut.
From Coq Require Import Lia.
Local Open Scope list_scope.
Local Open Scope nat_scope.

(** the tokens of a sequence of pieces joined by semicolons, each piece scanned on its own *)
Fixpoint join_scans (off : nat) (ps : list str) : list token :=
  match ps with
  | [] => []
  | [p] => map (shift_tok off) (scan p)
  | p :: r => map (shift_tok off) (scan p) ++ semi_tok (off + length p) :: join_scans (S (off + length p)) r
  end.

Lemma shift_tok_0 t : shift_tok 0 t = t.
Proof. destruct t; reflexivity. Qed.
Lemma map_shift_0 ts : map (shift_tok 0) ts = ts.
Proof. induction ts as [|t r IH]; cbn [map]; [reflexivity|]. rewrite shift_tok_0, IH. reflexivity. Qed.
Lemma shift_shift a b t : shift_tok a (shift_tok b t) = shift_tok (a + b) t.
Proof. unfold shift_tok. cbn [tkind tstart tend tvalue]. f_equal; lia. Qed.
Lemma map_shift_shift a b ts : map (shift_tok a) (map (shift_tok b) ts) = map (shift_tok (a + b)) ts.
Proof. rewrite map_map. apply map_ext. intros t. apply shift_shift. Qed.

Lemma join_scans_shift k ps : forall off, join_scans (k + off) ps = map (shift_tok k) (join_scans off ps).
Proof.
  induction ps as [|p r IH]; intros off; [reflexivity|].
  destruct r as [|p2 r2].
  - cbn [join_scans]. rewrite map_shift_shift. reflexivity.
  - change (join_scans (k + off) (p :: p2 :: r2)) with
      (map (shift_tok (k + off)) (scan p) ++ semi_tok (k + off + length p) :: join_scans (S (k + off + length p)) (p2 :: r2)).
    change (join_scans off (p :: p2 :: r2)) with
      (map (shift_tok off) (scan p) ++ semi_tok (off + length p) :: join_scans (S (off + length p)) (p2 :: r2)).
    rewrite map_app. cbn [map]. rewrite map_shift_shift. f_equal. f_equal.
    + unfold semi_tok, shift_tok. cbn. f_equal; lia.
    + replace (S (k + off + length p)) with (k + S (off + length p)) by lia. apply IH.
Qed.

Fixpoint no_semi (ts : list token) : bool :=
  match ts with [] => true | t :: r => negb (kind_eqb (tkind t) KSemi) && no_semi r end.

Lemma first_semi ts : no_semi ts = true \/ exists pre t post, ts = pre ++ t :: post /\ no_semi pre = true /\ tkind t = KSemi.
Proof.
  induction ts as [|t r IH]; [left; reflexivity|]. cbn [no_semi].
  destruct (kind_eqb (tkind t) KSemi) eqn:E.
  - right. exists [], t, r. repeat split. apply kind_eqb_semi. exact E.
  - destruct IH as [H|(pre & u & post & -> & Hp & Hu)]; [left; exact H|].
    right. exists (t :: pre), u, post. repeat split; [cbn [no_semi]; rewrite E, Hp; reflexivity|exact Hu].
Qed.

Lemma split_skip_prefix s pre : forall start rest, no_semi pre = true ->
  split_at_semis s start (pre ++ rest) = split_at_semis s start rest.
Proof.
  induction pre as [|t r IH]; intros start rest H; cbn [app split_at_semis]; [reflexivity|].
  cbn [no_semi] in H. apply andb_prop in H as [Ht Hr]. apply Bool.negb_true_iff in Ht.
  destruct (tkind t) eqn:E; try (apply IH; exact Hr). vm_compute in Ht. discriminate.
Qed.

Lemma split_no_semi s ts start : no_semi ts = true -> split_at_semis s start ts = [skipn start s].
Proof. intros H. rewrite <- (app_nil_r ts), split_skip_prefix by exact H. reflexivity. Qed.

Lemma slice_skipn s k a b : slice s (k + a) (k + b) = slice (skipn k s) a b.
Proof. unfold slice. rewrite skipn_skipn_add. f_equal; [lia|f_equal; lia]. Qed.

Lemma split_shift s k ts : forall start,
  split_at_semis s (k + start) (map (shift_tok k) ts) = split_at_semis (skipn k s) start ts.
Proof.
  induction ts as [|t r IH]; intros start; cbn [map split_at_semis].
  - rewrite skipn_skipn_add. f_equal. f_equal. lia.
  - change (tkind (shift_tok k t)) with (tkind t). change (tstart (shift_tok k t)) with (k + tstart t).
    change (tend (shift_tok k t)) with (k + tend t).
    destruct (tkind t); try apply IH.
    rewrite slice_skipn. f_equal. apply IH.
Qed.

(** in a list of tokens in source order, the token starting at a given offset is unique *)
Lemma toks_within_split lo hi l1 x l2 l1' x' l2' :
  toks_within lo hi (l1 ++ x :: l2) -> l1 ++ x :: l2 = l1' ++ x' :: l2' -> tstart x = tstart x' -> l1 = l1' /\ l2 = l2'.
Proof.
  revert lo l1'. induction l1 as [|a l1 IH]; intros lo l1' W E Hs.
  - destruct l1' as [|a' l1'']; cbn [app] in E.
    + injection E as E1 E2. auto.
    + exfalso. injection E as E1 E2. subst a'. cbn [app] in W. inversion W as [|? ? ? ? A B C W']; subst.
      assert (Hin : In x' (l1'' ++ x' :: l2')) by (apply in_or_app; right; left; reflexivity).
      pose proof (toks_within_start _ _ _ _ W' Hin). lia.
  - destruct l1' as [|a' l1'']; cbn [app] in E.
    + exfalso. injection E as E1 E2. subst a. cbn [app] in W. inversion W as [|? ? ? ? A B C W']; subst.
      assert (Hin : In x (l1 ++ x :: l2)) by (apply in_or_app; right; left; reflexivity).
      pose proof (toks_within_start _ _ _ _ W' Hin). lia.
    + injection E as E1 E2. subst a'. cbn [app] in W. inversion W as [|? ? ? ? A B C W']; subst.
      destruct (IH _ _ W' E2 Hs) as [-> ->]. auto.
Qed.

Lemma nth_error_split {A} (l : list A) n x : nth_error l n = Some x -> l = firstn n l ++ x :: skipn (S n) l.
Proof. intros H. rewrite <- (firstn_skipn n l) at 1. rewrite (nth_error_skipn_cons l n x H). reflexivity. Qed.

Lemma split_statements_nonempty s : split_statements s <> [].
Proof. apply split_at_semis_nonempty. Qed.

(** The source is cut at its first semicolon token ([scan_semi]); the rest is split like a source
    of its own ([split_shift]).  Both claims come out of this one decomposition. *)
Theorem scan_is_join_of_piece_scans : forall n s, length s <= n ->
  scan s = join_scans 0 (split_statements s) /\ Forall (fun p => no_semi (scan p) = true) (split_statements s).
Proof.
  induction n as [|n IH]; intros s Hn.
  - destruct s; [split; [reflexivity|repeat constructor]|cbn in Hn; lia].
  - destruct (first_semi (scan s)) as [Hns|(pre & t & post & Ets & Hpre & Ht)].
    + unfold split_statements. rewrite split_no_semi by exact Hns. cbn [skipn join_scans]. rewrite map_shift_0.
      split; [reflexivity|repeat constructor; exact Hns].
    + assert (Hin : In t (scan s)) by (rewrite Ets; apply in_or_app; right; left; reflexivity).
      destruct (scan_semi_byte s t Hin Ht) as (Hend & Hbyte).
      set (p := tstart t) in *.
      assert (Hp : p < length s) by (apply nth_error_Some; congruence).
      pose proof (nth_error_split s p _ Hbyte) as Es.
      set (a := firstn p s) in *. set (b := skipn (S p) s) in *.
      assert (Ha : length a = p) by (subst a; rewrite firstn_length; lia).
      assert (Hsemi : scan s = scan a ++ semi_tok p :: map (shift_tok (S p)) (scan b)).
      { rewrite Es at 1. rewrite scan_semi; [rewrite Ha; reflexivity|].
        exists t. split; [rewrite <- Es; exact Hin|rewrite Ha; reflexivity]. }
      assert (Hsame : pre = scan a /\ post = map (shift_tok (S p)) (scan b)).
      { eapply (toks_within_split 0 (length s)); [rewrite <- Ets; apply scan_within|rewrite <- Ets; exact Hsemi|reflexivity]. }
      destruct Hsame as [Epre Epost].
      assert (Hsplit : split_statements s = a :: split_statements b).
      { unfold split_statements at 1. rewrite Ets, split_skip_prefix by exact Hpre.
        cbn [split_at_semis]. rewrite Ht. f_equal; [unfold slice; rewrite Nat.sub_0_r; reflexivity|].
        rewrite Hend, Epost. fold p. replace (S p) with (S p + 0) at 1 by lia.
        rewrite split_shift. reflexivity. }
      assert (Hb : length b <= n) by (subst b; rewrite skipn_length; lia).
      destruct (IH b Hb) as (IHscan & IHall).
      rewrite Hsplit. split; [|constructor; [rewrite <- Epre; exact Hpre|exact IHall]].
      pose proof (split_statements_nonempty b) as Hne.
      destruct (split_statements b) as [|q qs] eqn:Eb; [congruence|]. rewrite <- Eb. rewrite <- Eb in IHscan.
      change (join_scans 0 (a :: split_statements b)) with
        (match split_statements b with
         | [] => map (shift_tok 0) (scan a)
         | _ => map (shift_tok 0) (scan a) ++ semi_tok (0 + length a) :: join_scans (S (0 + length a)) (split_statements b)
         end).
      rewrite Eb at 1. rewrite map_shift_0, Ha. cbn [Nat.add].
      replace (join_scans (S p) (split_statements b)) with (join_scans (S p + 0) (split_statements b)) by (f_equal; lia).
      rewrite join_scans_shift. rewrite <- IHscan. exact Hsemi.
Qed.

Theorem scan_locality s : scan s = join_scans 0 (split_statements s).
Proof. apply (scan_is_join_of_piece_scans (length s) s). lia. Qed.

Theorem pieces_have_no_semi s p : In p (split_statements s) -> no_semi (scan p) = true.
Proof.
  intros Hin. destruct (scan_is_join_of_piece_scans (length s) s (le_n _)) as (_ & Hall).
  rewrite Forall_forall in Hall. apply Hall. exact Hin.
Qed.
