(** * The steps of splitQueries.  An operator other than a join marks one subquery ([decorate]):
    the last one (sort, take, top, when the generated conditions allow) or a fresh one appended.
    A join runs its right-hand pipeline on the same list, makes sure it left a subquery of its own
    ([ensure_one]), and appends the subquery that joins.  Every loop invariant is proved from these
    two equations.  The let/query loop and WITH ... SELECT ([write_query]) get the same treatment. *)
From PQL Require Import Model.Compile Proofs.TableFacts Proofs.ExprInd Proofs.WriterEqns.
From Coq Require Import Lia String.
Local Open Scope list_scope.
Local Open Scope nat_scope.
Local Notation length := List.length (only parsing).

Lemma last_opt_snoc {A} (l : list A) x : last_opt (l ++ [x]) = Some x.
Proof. unfold last_opt. rewrite rev_app_distr. reflexivity. Qed.

Lemma set_last_snoc (l : list subq) x f : set_last (l ++ [x]) f = l ++ [f x].
Proof. unfold set_last. rewrite rev_app_distr. cbn [rev app]. rewrite rev_involutive. reflexivity. Qed.

Lemma length_snoc {A} (l : list A) x : length (l ++ [x]) = S (length l).
Proof. apply last_length. Qed.

Lemma nth_error_snoc {A} (l : list A) x i v : nth_error (l ++ [x]) i = Some v ->
  (i < length l /\ nth_error l i = Some v) \/ (i = length l /\ v = x).
Proof.
  intros H. destruct (Nat.lt_ge_cases i (length l)) as [Hlt|Hge].
  - left. split; [exact Hlt|]. rewrite nth_error_app1 in H by exact Hlt. exact H.
  - right. rewrite nth_error_app2 in H by exact Hge. destruct (i - length l) as [|k] eqn:E.
    + cbn in H. injection H as <-. split; [lia|reflexivity].
    + cbn in H. destruct k; discriminate.
Qed.

Lemma Forall_snoc {A} (P : A -> Prop) l x : Forall P l -> P x -> Forall P (l ++ [x]).
Proof. intros H Hx. apply Forall_app. split; [exact H|constructor; [exact Hx|constructor]]. Qed.

Lemma Forall_set_last (P : subq -> Prop) dst f : Forall P dst -> (forall s, P s -> P (f s)) -> Forall P (set_last dst f).
Proof.
  intros H Hf. destruct dst as [|s init _] using rev_ind; [constructor|].
  rewrite set_last_snoc. apply Forall_app in H as [Hi Hs]. inversion Hs; subst. apply Forall_snoc; auto.
Qed.

Lemma map_set_last {B} (g : subq -> B) dst f : (forall s, g (f s) = g s) -> map g (set_last dst f) = map g dst.
Proof.
  intros Hf. destruct dst as [|x r _] using rev_ind; [reflexivity|].
  rewrite set_last_snoc, !map_app. cbn [map]. rewrite Hf. reflexivity.
Qed.

Lemma fold_res_app {A B} (f : A -> B -> res A) a b x : fold_res f (a ++ b) x = (do y <- fold_res f a x; fold_res f b y).
Proof.
  revert x. induction a as [|o r IH]; intros x; cbn [app fold_res bind]; [reflexivity|].
  destruct (f x o); cbn [bind]; [apply IH|reflexivity].
Qed.

Lemma fold_res_ext {A B} (f g : A -> B -> res A) : forall l a, Forall (fun x => forall a0, f a0 x = g a0 x) l -> fold_res f l a = fold_res g l a.
Proof.
  induction l as [|x r IH]; intros a H; cbn [fold_res]; [reflexivity|]. inversion H; subst.
  rewrite H2. destruct (g a x); cbn [bind]; [apply IH; assumption|reflexivity].
Qed.

Lemma fold_res_inv {A B} (P : A -> Prop) (f : A -> B -> res A) : forall l a a',
  Forall (fun x => forall d d', P d -> f d x = Ok d' -> P d') l -> P a -> fold_res f l a = Ok a' -> P a'.
Proof.
  induction l as [|x r IH]; intros a a' Hall Ha H; cbn [fold_res] in H; [injection H as <-; exact Ha|].
  inversion Hall; subst. apply bind_ok in H as (d1 & E & H). eapply IH; [eassumption| |exact H]. eauto.
Qed.

Definition can_attach (s : subq) : bool :=
  match sq_op s with Some o => can_attach_sort (op_nkind o) | None => can_attach_sort_default end.

Lemma state_of_snoc dst s ds : ds <> S (length dst) ->
  state_of (dst ++ [s]) ds =
  {| ss_nil := false;
     ss_can_attach := can_attach s;
     ss_has_sort := match sq_sort s with Some _ => true | None => false end;
     ss_has_take := match sq_take s with Some _ => true | None => false end |}.
Proof.
  intros H. unfold state_of. rewrite length_snoc, last_opt_snoc.
  destruct (Nat.eqb_spec (S (length dst)) ds); [congruence|reflexivity].
Qed.

Lemma state_of_nonempty dst ds : ss_nil (state_of dst ds) = false -> exists init s, dst = init ++ [s] /\ ds <> S (length init).
Proof.
  unfold state_of. destruct (Nat.eqb_spec (length dst) ds) as [|Hne]; [discriminate|].
  destruct dst as [|s init _] using rev_ind; [discriminate|]. intros _. exists init, s. rewrite length_snoc in Hne. auto.
Qed.

Definition decorate (o : operator) (s : subq) : subq :=
  match o with
  | OSort _ _ ts => mkSubq (sq_name s) (sq_source s) (sq_op s) (Some ts) (sq_take s)
  | OTake _ _ n => mkSubq (sq_name s) (sq_source s) (sq_op s) (sq_sort s) (Some n)
  | OTop _ _ n _ c => mkSubq (sq_name s) (sq_source s) (sq_op s) (Some [c]) (Some n)
  | OAs _ _ n => mkSubq (iname n) (sq_source s) (Some o) None None
  | _ => mkSubq (sq_name s) (sq_source s) (Some o) None None
  end.

Definition lands_on_last (o : operator) (st : split_state) : bool :=
  match o with
  | OSort _ _ _ => negb (split_cond_sort st)
  | OTake _ _ _ => negb (split_cond_take st)
  | OTop _ _ _ _ _ => negb (split_cond_top st)
  | _ => false
  end.

Theorem split_op_plain sc ds src dst o : not_join o ->
  split_op sc ds src dst o =
  Ok (if lands_on_last o (state_of dst ds) then set_last dst (decorate o)
      else dst ++ [decorate o (chain_subquery dst ds src)]).
Proof.
  intros Hj. destruct o; try discriminate Hj; cbn [split_op lands_on_last]; try reflexivity.
  all: match goal with |- context [negb ?c] => destruct c end; cbn [negb]; rewrite ?set_last_snoc; reflexivity.
Qed.

(** no LIMIT yet, and no ORDER BY unless [o] only limits *)
Definition attachable (o : operator) (s : subq) : Prop :=
  can_attach s = true /\ sq_take s = None /\ match o with OTake _ _ _ => True | _ => sq_sort s = None end.

Theorem lands_on_last_spec o dst ds : lands_on_last o (state_of dst ds) = true ->
  exists init s, dst = init ++ [s] /\ ds <> S (length init) /\ attachable o s.
Proof.
  intros H.
  assert (Hst : ss_nil (state_of dst ds) = false /\ ss_can_attach (state_of dst ds) = true /\ ss_has_take (state_of dst ds) = false /\
                match o with OTake _ _ _ => True | _ => ss_has_sort (state_of dst ds) = false end).
  { destruct o; try discriminate H; cbn [lands_on_last] in H; apply Bool.negb_true_iff in H;
      [apply sort_attach_spec in H|apply take_attach_spec in H|apply top_attach_spec in H]; tauto. }
  destruct Hst as (Hnil & Hca & Hta & Hso). destruct (state_of_nonempty _ _ Hnil) as (init & s & -> & Hds).
  rewrite state_of_snoc in Hca, Hta, Hso by exact Hds. cbn [ss_can_attach ss_has_take ss_has_sort] in Hca, Hta, Hso.
  exists init, s. split; [reflexivity|]. split; [exact Hds|]. split; [exact Hca|]. split; [destruct (sq_take s); [discriminate|reflexivity]|].
  destruct o; try exact I; destruct (sq_sort s); try reflexivity; discriminate.
Qed.

Lemma decorate_source o s : not_join o -> sq_source (decorate o s) = sq_source s.
Proof. intros Hj. destruct o; try discriminate Hj; reflexivity. Qed.

Lemma decorate_last o st s : lands_on_last o st = true ->
  sq_name (decorate o s) = sq_name s /\ sq_source (decorate o s) = sq_source s /\ sq_op (decorate o s) = sq_op s.
Proof. intros H. destruct o; try discriminate H; repeat split. Qed.

Definition last_name (l : list subq) : str := match last_opt l with Some s => sq_name s | None => [] end.

(** the table so far: this pipeline's last subquery if it has one, else its source *)
Definition left_source (ds : nat) (src : ident) (dst : list subq) : str :=
  if Nat.ltb ds (length dst) then last_name dst else iname src.

Lemma chain_subquery_eq dst ds src :
  chain_subquery dst ds src = mkSubq (subquery_name (length dst)) (SrcName (left_source ds src dst)) None None None.
Proof. unfold chain_subquery, left_source, last_name. destruct (Nat.ltb ds (length dst)); [destruct (last_opt dst)|]; reflexivity. Qed.

Lemma last_name_nth l : l <> [] -> exists s, nth_error l (length l - 1) = Some s /\ last_name l = sq_name s.
Proof.
  destruct l as [|s init _] using rev_ind; [congruence|]. intros _. exists s. unfold last_name.
  rewrite last_opt_snoc, length_snoc, nth_error_app2 by lia. replace (S (length init) - 1 - length init) with 0 by lia. split; reflexivity.
Qed.

Lemma left_source_cases ds src dst :
  (length dst <= ds /\ left_source ds src dst = iname src) \/
  (ds < length dst /\ exists s, nth_error dst (length dst - 1) = Some s /\ left_source ds src dst = sq_name s).
Proof.
  unfold left_source. destruct (Nat.ltb_spec ds (length dst)) as [Hlt|Hge]; [right|left; split; [exact Hge|reflexivity]].
  split; [exact Hlt|]. apply last_name_nth. intros ->. inversion Hlt.
Qed.

Definition ensure_one (ds : nat) (src : ident) (l : list subq) : list subq :=
  if Nat.eqb (length l) ds then l ++ [chain_subquery l ds src] else l.

Lemma split_queries_eq sc dst t :
  split_queries sc dst t = do d <- fold_res (split_op sc (length dst) (tsrc t)) (tops t) dst; Ok (ensure_one (length dst) (tsrc t) d).
Proof. reflexivity. Qed.

Lemma ensure_one_longer ds src l : ds <= length l -> ds < length (ensure_one ds src l).
Proof. intros H. unfold ensure_one. destruct (Nat.eqb_spec (length l) ds); [rewrite length_snoc|]; lia. Qed.

Lemma ensure_one_nonempty src l : ensure_one 0 src l <> [].
Proof. intros E. pose proof (ensure_one_longer 0 src l (Nat.le_0_l _)) as Hl. rewrite E in Hl. inversion Hl. Qed.

Lemma bare_name_Some sc e p : bare_name sc e = Some p <->
  e = EQual [p] /\ iquoted p = false /\ assoc_str builtin_idents (iname p) = None /\ scope_get sc (iname p) = None.
Proof.
  split.
  - destruct e as [[|q [|q2 r]]| | | | | | |]; try discriminate. cbn [bare_name].
    destruct (iquoted q) eqn:Hq; [discriminate|]. destruct (assoc_str builtin_idents (iname q)) eqn:Hb; [discriminate|].
    destruct (scope_get sc (iname q)) eqn:Hs; [discriminate|]. intros [= <-]. auto.
  - intros (-> & Hq & Hb & Hs). cbn [bare_name]. rewrite Hq, Hb, Hs. reflexivity.
Qed.

(** [build_join_cond]: the conjunction of the rewritten conditions, `true` if there is none *)
Lemma build_join_cond_ind sc (P : expr -> Prop) conds :
  (conds = [] -> P (EQual [mkIdent w_true None false])) -> (forall x y, P x -> P y -> P (EBin x None KAnd y)) ->
  Forall (fun c => P (rewrite_simple_cond sc c)) conds -> P (build_join_cond sc conds).
Proof.
  intros Ht Hand H. destruct H as [|c0 r H0 Hr]; [exact (Ht eq_refl)|]. clear Ht. cbn [build_join_cond]. revert H0. generalize (rewrite_simple_cond sc c0) as acc.
  induction Hr as [|y r Hy _ IH]; intros acc Hacc; cbn [fold_left]; auto.
Qed.

Lemma build_join_cond_forallb sc (f g : expr -> bool) conds :
  f (EQual [mkIdent w_true None false]) = true -> (forall x y, f (EBin x None KAnd y) = f x && f y) ->
  (forall c, f (rewrite_simple_cond sc c) = g c) -> f (build_join_cond sc conds) = forallb g conds.
Proof.
  intros Ht Hand Hg. destruct conds as [|c0 r]; [exact Ht|]. cbn [build_join_cond forallb]. rewrite <- Hg.
  generalize (rewrite_simple_cond sc c0) as acc. induction r as [|y r IH]; intros acc; cbn [fold_left forallb]; [symmetry; apply Bool.andb_true_r|].
  rewrite IH, Hand, Hg, Bool.andb_assoc. reflexivity.
Qed.

Lemma build_join_cond_map sc sc' (g h : expr -> expr) conds :
  h (EQual [mkIdent w_true None false]) = EQual [mkIdent w_true None false] ->
  (forall x y, h (EBin x None KAnd y) = EBin (h x) None KAnd (h y)) ->
  Forall (fun c => rewrite_simple_cond sc (g c) = h (rewrite_simple_cond sc' c)) conds ->
  build_join_cond sc (map g conds) = h (build_join_cond sc' conds).
Proof.
  intros Ht Hand [|c0 r H0 Hr]; [symmetry; exact Ht|]. cbn [build_join_cond map]. rewrite H0.
  generalize (rewrite_simple_cond sc' c0) as acc. induction Hr as [|y r Hy _ IH]; intros acc; cbn [fold_left map]; [reflexivity|].
  rewrite Hy, <- Hand. apply IH.
Qed.

Definition flavor_name (fl : option ident) : str := match fl with Some f => iname f | None => w_innerunique end.

(** [Ok outer], or the position of an unknown kind *)
Definition flavor_ok (fl : option ident) : res bool :=
  if str_eqb (flavor_name fl) w_inner || str_eqb (flavor_name fl) w_innerunique then Ok false
  else if str_eqb (flavor_name fl) w_leftouter then Ok true
  else Err (match fl with Some f => span_start (ispan f) | None => None end).

Definition join_subq (sc : scope) (ds : nat) (src : ident) (dst : list subq) (fl : option ident) (conds : list expr)
    (outer : bool) (cond : list piece) (right : list subq) : subq :=
  mkSubq (subquery_name (length right))
    (SrcJoin (str_eqb (flavor_name fl) w_innerunique) (left_source ds src dst) outer (last_name right) (build_join_cond sc conds) cond)
    None None None.

Theorem split_op_join sc ds src dst p k ks ka fl lp rsrc rops rp on conds :
  split_op sc ds src dst (OJoin p k ks ka fl lp rsrc rops rp on conds) =
  do d1 <- fold_res (split_op sc (length dst) rsrc) rops dst;
  do outer <- flavor_ok fl;
  do cond <- wexpr (mkCtx sc ModeJoin) (build_join_cond sc conds);
  Ok (ensure_one (length dst) rsrc d1 ++ [join_subq sc ds src dst fl conds outer cond (ensure_one (length dst) rsrc d1)]).
Proof.
  cbn [split_op]. cbv zeta.
  (* the inner loop of [split_op] is [fold_res], written out so that the recursion is structural *)
  assert (Hgo : forall l d, (fix go (l : list operator) (d : list subq) {struct l} : res (list subq) :=
             match l with
             | [] => Ok d
             | o' :: r => do d' <- split_op sc (length dst) rsrc d o'; go r d'
             end) l d = fold_res (split_op sc (length dst) rsrc) l d).
  { induction l as [|o' r IH]; intros d; cbn [fold_res]; [reflexivity|].
    destruct (split_op sc (length dst) rsrc d o'); cbn [bind]; [apply IH|reflexivity]. }
  rewrite Hgo. reflexivity.
Qed.

Corollary split_op_join_ok sc ds src dst p k ks ka fl lp rsrc rops rp on conds dst' :
  split_op sc ds src dst (OJoin p k ks ka fl lp rsrc rops rp on conds) = Ok dst' ->
  exists d1 outer cond,
    fold_res (split_op sc (length dst) rsrc) rops dst = Ok d1 /\ flavor_ok fl = Ok outer /\
    wexpr (mkCtx sc ModeJoin) (build_join_cond sc conds) = Ok cond /\
    dst' = ensure_one (length dst) rsrc d1 ++ [join_subq sc ds src dst fl conds outer cond (ensure_one (length dst) rsrc d1)].
Proof.
  rewrite split_op_join. intros H. apply bind_ok in H as (d1 & H1 & H). apply bind_ok in H as (outer & H2 & H).
  apply bind_ok in H as (cond & H3 & [= <-]). exists d1, outer, cond. auto.
Qed.

Section Forall.
Variables (sc : scope) (Q : subq -> Prop) (R : operator -> Prop).
Hypothesis Qfresh : forall dst ds src, Q (chain_subquery dst ds src).
Hypothesis Qdecorate : forall o s, not_join o -> R o -> Q s -> Q (decorate o s).
Hypothesis Qjoin : forall p k ks ka fl lp rsrc rops rp on conds, R (OJoin p k ks ka fl lp rsrc rops rp on conds) ->
  forall cond, wexpr (mkCtx sc ModeJoin) (build_join_cond sc conds) = Ok cond ->
  forall nm u l ou r, Q (mkSubq nm (SrcJoin u l ou r (build_join_cond sc conds) cond) None None None).
Hypothesis Rsub : forall p k ks ka fl lp rsrc rops rp on conds, R (OJoin p k ks ka fl lp rsrc rops rp on conds) -> Forall R rops.

Lemma ensure_one_Forall ds src l : Forall Q l -> Forall Q (ensure_one ds src l).
Proof. intros H. unfold ensure_one. destruct (Nat.eqb _ _); [apply Forall_snoc; [exact H|apply Qfresh]|exact H]. Qed.

Theorem split_op_Forall : forall o, R o -> forall ds src dst dst',
  Forall Q dst -> split_op sc ds src dst o = Ok dst' -> Forall Q dst'.
Proof.
  induction o as [o Hj|p k ks ka fl lp rsrc rops rp on conds IH] using operator_ind'; intros Ho ds src dst dst' Hd Hs.
  - rewrite (split_op_plain _ _ _ _ _ Hj) in Hs. injection Hs as <-. destruct (lands_on_last _ _).
    + apply Forall_set_last; [exact Hd|]. intros s. apply Qdecorate; assumption.
    + apply Forall_snoc; [exact Hd|]. apply Qdecorate; [assumption..|apply Qfresh].
  - apply split_op_join_ok in Hs as (d1 & outer & cond & H1 & _ & Hc & ->).
    apply Forall_snoc; [apply ensure_one_Forall|eapply Qjoin; eassumption].
    eapply (fold_res_inv (Forall Q)); [|exact Hd|exact H1].
    pose proof (Rsub _ _ _ _ _ _ _ _ _ _ _ Ho) as Hr. rewrite Forall_forall in IH, Hr |- *.
    intros o Hin d d'. apply IH; auto.
Qed.

Corollary split_queries_Forall t subs : Forall R (tops t) -> split_queries sc [] t = Ok subs -> Forall Q subs.
Proof.
  rewrite split_queries_eq. intros Hr H. apply bind_ok in H as (d & H & [= <-]). apply ensure_one_Forall.
  eapply (fold_res_inv (Forall Q)); [|constructor|exact H].
  eapply Forall_impl; [|exact Hr]. intros o Ho d0 d'. apply split_op_Forall. exact Ho.
Qed.
End Forall.

(** it can fail only at a join, on its kind or on its condition *)
Section Errors.
Variables (sc : scope) (E : option nat -> Prop) (R : operator -> Prop).
Hypothesis Ejoin : forall p k ks ka fl lp rsrc rops rp on conds, R (OJoin p k ks ka fl lp rsrc rops rp on conds) ->
  Forall R rops /\ (forall pos, flavor_ok fl = Err pos -> E pos) /\
  (forall pos, wexpr (mkCtx sc ModeJoin) (build_join_cond sc conds) = Err pos -> E pos).

Lemma fold_res_Err {A B} (f : A -> B -> res A) : forall l a pos,
  Forall (fun x => forall d pos, f d x = Err pos -> E pos) l -> fold_res f l a = Err pos -> E pos.
Proof.
  induction l as [|x r IH]; intros a pos Hall H; cbn [fold_res] in H; [discriminate|]. inversion Hall; subst.
  destruct (f a x) as [d|] eqn:Ef; cbn [bind] in H; [eapply IH; eassumption|injection H as <-; eauto].
Qed.

Theorem split_op_Err : forall o, R o -> forall ds src dst pos, split_op sc ds src dst o = Err pos -> E pos.
Proof.
  induction o as [o Hj|p k ks ka fl lp rsrc rops rp on conds IH] using operator_ind'; intros Ho ds src dst pos Hs.
  - rewrite (split_op_plain _ _ _ _ _ Hj) in Hs. discriminate.
  - destruct (Ejoin _ _ _ _ _ _ _ _ _ _ _ Ho) as (Hr & Hfl & Hc). rewrite split_op_join in Hs.
    destruct (fold_res _ rops dst) eqn:Ef; cbn [bind] in Hs.
    + destruct (flavor_ok fl); cbn [bind] in Hs; [|injection Hs as <-; auto].
      destruct (wexpr _ _); cbn [bind] in Hs; [discriminate|injection Hs as <-; auto].
    + injection Hs as <-. eapply fold_res_Err; [|exact Ef]. rewrite Forall_forall in IH, Hr |- *. intros o Hin d. apply IH; auto.
Qed.

Corollary split_queries_Err t pos : Forall R (tops t) -> split_queries sc [] t = Err pos -> E pos.
Proof.
  rewrite split_queries_eq. intros Hr H. destruct (fold_res _ (tops t) []) eqn:Ef; [discriminate|]. injection H as <-.
  eapply fold_res_Err; [|exact Ef]. eapply Forall_impl; [|exact Hr]. intros o Ho d. apply split_op_Err. exact Ho.
Qed.
End Errors.

(** the scope matters only for the join conditions *)
Theorem split_op_ext sc sc' (R : operator -> Prop) :
  (forall p k ks ka fl lp rsrc rops rp on conds, R (OJoin p k ks ka fl lp rsrc rops rp on conds) ->
     Forall R rops /\ build_join_cond sc conds = build_join_cond sc' conds /\
     wexpr (mkCtx sc ModeJoin) (build_join_cond sc' conds) = wexpr (mkCtx sc' ModeJoin) (build_join_cond sc' conds)) ->
  forall o, R o -> forall ds src dst, split_op sc ds src dst o = split_op sc' ds src dst o.
Proof.
  intros HR. induction o as [o Hj|p k ks ka fl lp rsrc rops rp on conds IH] using operator_ind'; intros Ho ds src dst.
  - rewrite !split_op_plain by exact Hj. reflexivity.
  - destruct (HR _ _ _ _ _ _ _ _ _ _ _ Ho) as (Hr & Eb & Ew). rewrite !split_op_join.
    rewrite (fold_res_ext (split_op sc (length dst) rsrc) (split_op sc' (length dst) rsrc)).
    + unfold join_subq. rewrite Eb, Ew. reflexivity.
    + rewrite Forall_forall in IH, Hr |- *. intros o Hin d. apply IH; auto.
Qed.

Definition write_query (source : str) (sc : scope) (t : tabular) : res (list piece) :=
  do subs <- split_queries sc [] t;
  match rev subs with
  | [] => Err None
  | q :: rctes =>
    do w <- write_ctes source (mkCtx sc ModeDefault) (rev rctes);
    do body <- write_subq source (mkCtx sc ModeDefault) q;
    Ok ((match rev rctes with [] => [] | _ => lit "WITH " end) ++ w ++ body ++ lit ";")
  end.

Lemma compile_stmts_eq source params ss :
  compile_stmts source params ss =
  do st <- stmt_loop (map (fun kv => (fst kv, [PRaw (snd kv)])) params) None ss;
  match snd st with None => Err None | Some t => write_query source (fst st) t end.
Proof. reflexivity. Qed.

Lemma write_query_ok source sc t ps : write_query source sc t = Ok ps ->
  exists subs q rctes w body, split_queries sc [] t = Ok subs /\ rev subs = q :: rctes /\
    write_ctes source (mkCtx sc ModeDefault) (rev rctes) = Ok w /\ write_subq source (mkCtx sc ModeDefault) q = Ok body /\
    ps = (match rev rctes with [] => [] | _ => lit "WITH " end) ++ w ++ body ++ lit ";".
Proof.
  unfold write_query. intros H. apply bind_ok in H as (subs & Hs & H). destruct (rev subs) as [|q rctes] eqn:Er; [discriminate|].
  apply bind_ok in H as (w & Hw & H). apply bind_ok in H as (body & Hb & [= <-]). exists subs, q, rctes, w, body. auto.
Qed.

(** what holds of the initial scope and is kept by every let holds of the scope the query is
    compiled in *)
Lemma stmt_loop_inv (P : scope -> Prop) (Q : stmt -> Prop) :
  (forall sc kw name a x v, Q (SLet kw name a x) -> P sc -> woperand (mkCtx sc ModeLet) x = Ok v -> P ((iname name, v) :: sc)) ->
  forall ss sc q sc' q', Forall Q ss -> P sc -> stmt_loop sc q ss = Ok (sc', q') ->
  P sc' /\ (q' = q \/ exists t, q' = Some t /\ In (STab t) ss).
Proof.
  intros Hlet. induction ss as [|s r IH]; intros sc q sc' q' HS HI H; cbn [stmt_loop] in H.
  - injection H as <- <-. auto.
  - inversion HS as [|? ? Hs Hr]; subst. destruct s as [kw name a x|t], q as [t0|]; try discriminate.
    + destruct (IH _ _ _ _ Hr HI H) as [H1 [H2|(t & H2 & H3)]]; [auto|]. split; [exact H1|]. right. exists t. split; [exact H2|right; exact H3].
    + apply bind_ok in H as (v & Hv & H).
      destruct (IH _ _ _ _ Hr (Hlet _ _ _ _ _ _ Hs HI Hv) H) as [H1 [H2|(t & H2 & H3)]]; [auto|]. split; [exact H1|]. right. exists t. split; [exact H2|right; exact H3].
    + destruct (IH _ _ _ _ Hr HI H) as [H1 [H2|(t' & H2 & H3)]]; split; try exact H1; right; [exists t; split; [exact H2|left; reflexivity]|exists t'; split; [exact H2|right; exact H3]].
Qed.

(** the loop fails only in writing a let's value, or at a second query *)
Lemma stmt_loop_Err (E : option nat -> Prop) (Q : stmt -> Prop) :
  (forall sc kw name a x pos, Q (SLet kw name a x) -> woperand (mkCtx sc ModeLet) x = Err pos -> E pos) ->
  (forall t, Q (STab t) -> E (span_start (gspan (g_tabular t)))) ->
  forall ss sc q pos, Forall Q ss -> stmt_loop sc q ss = Err pos -> E pos.
Proof.
  intros Hlet Htab. induction ss as [|s r IH]; intros sc q pos HS H; cbn [stmt_loop] in H; [discriminate|].
  inversion HS as [|? ? Hs Hr]; subst. destruct s as [kw name a x|t], q as [t0|]; try (eapply IH; eassumption).
  - (* a let before the query: its value is written *)
    destruct (woperand (mkCtx sc ModeLet) x) as [v|] eqn:Ev; cbn [bind] in H; [eapply IH; eassumption|injection H as <-; exact (Hlet _ _ _ _ _ _ Hs Ev)].
  - (* a query after the query *) injection H as <-. exact (Htab _ Hs).
Qed.

Corollary stmt_loop_query ss sc sc' t : stmt_loop sc None ss = Ok (sc', Some t) -> In (STab t) ss.
Proof.
  intros H. destruct (stmt_loop_inv (fun _ => True) (fun _ => True) (fun _ _ _ _ _ _ _ _ _ => I) ss _ _ _ _
                        (proj2 (Forall_forall _ _) (fun _ _ => I)) I H) as [_ [Hq|(t' & [= <-] & Hin)]]; [discriminate|exact Hin].
Qed.

Lemma compile_stmts_ok source params ss ps : compile_stmts source params ss = Ok ps ->
  exists sc t, stmt_loop (map (fun kv => (fst kv, [PRaw (snd kv)])) params) None ss = Ok (sc, Some t) /\ In (STab t) ss /\
    write_query source sc t = Ok ps.
Proof.
  rewrite compile_stmts_eq. intros H. apply bind_ok in H as ([sc [t|]] & Hl & H); [|discriminate].
  exists sc, t. split; [exact Hl|]. split; [exact (stmt_loop_query _ _ _ _ Hl)|exact H].
Qed.
