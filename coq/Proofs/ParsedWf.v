(** Every program the parser accepts is well formed in the sense of SubqWf.v (minus finding
    F1), so the chain text -> subqueries -> meaning starts at the source text. *)
From PQL Require Import Spec.FlattenStmt Spec.SqlRead Proofs.ExprInd Proofs.ParserSoundStmt
  Proofs.ParserReject Proofs.ReadBack Proofs.ReadBackStmt Proofs.SubqWf.
Local Open Scope list_scope.
Local Open Scope nat_scope.
Local Notation length := List.length (only parsing).

(** finding F1: no pass-through function called NOT or CASE *)
Fixpoint names_ok_op (o : operator) : Prop :=
  match o with
  | OCount _ _ | OAs _ _ _ | ORender _ _ _ _ _ _ _ => True
  | OWhere _ _ p => names_ok p
  | OSort _ _ terms => Forall (fun t => names_ok (st_x t)) terms
  | OTake _ _ n => names_ok n
  | OTop _ _ n _ col => names_ok n /\ names_ok (st_x col)
  | OProject _ _ cols => Forall (fun col => match pc_x col with Some x => names_ok x | None => True end) cols
  | OExtend _ _ cols => Forall (fun col => names_ok (ec_x col)) cols
  | OSummarize _ _ cols _ groupby => Forall (fun col => names_ok (ec_x col)) cols /\ Forall (fun col => names_ok (ec_x col)) groupby
  | OJoin _ _ _ _ _ _ _ rops _ _ conds =>
    Forall names_ok conds /\ (fix all (l : list operator) : Prop := match l with [] => True | a :: r => names_ok_op a /\ all r end) rops
  end.

Lemma names_ok_op_all l : (fix all (l : list operator) : Prop := match l with [] => True | a :: r => names_ok_op a /\ all r end) l <-> Forall names_ok_op l.
Proof. apply (fix_all_Forall names_ok_op). Qed.

Definition names_ok_stmt (s : stmt) : Prop :=
  match s with SLet _ _ _ x => names_ok x | STab t => Forall names_ok_op (tops t) end.

Lemma expr_wf x tx : toks_expr x tx -> names_ok x -> wfr x.
Proof. apply parsed_wfr. Qed.

Lemma list_wf l ts : toks_list l ts -> Forall names_ok l -> Forall wfr l.
Proof. intros H Hn. apply (fix_all_Forall wfr), (proj1 (proj2 parsed_wfr) l ts H), (fix_all_Forall names_ok), Hn. Qed.

Lemma sep_Forall {X} (P : X -> list token -> Prop) (Q R : X -> Prop) : (forall a ta, P a ta -> Q a -> R a) ->
  forall l ts, toks_sep P l ts -> Forall Q l -> Forall R l.
Proof.
  intros HP l ts H HQ.
  pose proof (sep_items P (fun _ => True) (fun a => Q a -> R a) (fun _ _ _ _ => conj I I) (fun a ta Ha _ => HP a ta Ha) l ts H I) as HF.
  rewrite Forall_forall in *. auto.
Qed.

Lemma sort_term_wf t ts : toks_sort_term t ts -> names_ok (st_x t) -> wfr (st_x t).
Proof. intros []. eapply expr_wf; eassumption. Qed.
Lemma ext_col_wf c ts : toks_ext_col c ts -> names_ok (ec_x c) -> wfr (ec_x c).
Proof. intros []; eapply expr_wf; eassumption. Qed.
Lemma proj_col_wf c ts : toks_proj_col c ts -> match pc_x c with Some x => names_ok x | None => True end -> match pc_x c with Some x => wfr x | None => True end.
Proof. intros []; [trivial|eapply expr_wf; eassumption]. Qed.

Definition sort_terms_wf := sep_Forall toks_sort_term _ _ sort_term_wf.
Definition ext_cols_wf := sep_Forall toks_ext_col _ _ ext_col_wf.
Definition proj_cols_wf := sep_Forall toks_proj_col _ _ proj_col_wf.

Theorem parsed_oper_wf :
  (forall o ts, toks_op o ts -> names_ok_op o -> oper_wf o) /\
  (forall l ts, toks_ops l ts -> Forall names_ok_op l -> Forall oper_wf l).
Proof.
  pose proof @toks_sep_nonempty as Hne.
  apply toks_op_mutind; cbn [names_ok_op oper_wf]; intros; try exact I;
    try solve [intuition eauto using expr_wf, sort_term_wf, sort_terms_wf, ext_cols_wf, proj_cols_wf].
  - match goal with Hs : toks_summ _ _ _ _ |- _ => destruct Hs end;
      intuition eauto using ext_cols_wf.
  - rewrite names_ok_op_all in *. rewrite oper_wf_all. intuition eauto using list_wf.
  - match goal with Hf : Forall names_ok_op (_ :: _) |- _ => inversion Hf; subst end. constructor; auto.
Qed.

Theorem parsed_stmts_wf : forall ss ts, toks_prog ss ts -> Forall names_ok_stmt ss -> stmts_wf ss.
Proof.
  assert (Hstmt : forall s ts, toks_stmt s ts -> names_ok_stmt s -> match s with SLet _ _ _ x => wfr x | STab t => Forall oper_wf (tops t) end).
  { intros s ts H Hn. destruct H as [ksp i asp x tk ti ta tx _ _ _ Hx|t ts (tsrc0 & tro & -> & _ & Ho)]; cbn [names_ok_stmt] in Hn.
    - eapply (proj1 parsed_wfr); eassumption.
    - eapply (proj2 parsed_oper_wf); eassumption. }
  induction 1 as [|semi ss rest Hsemi Hp IH|s ts Hs|s ts semi ss rest Hs Hsemi Hp IH]; intros Hn; unfold stmts_wf in *.
  - constructor.
  - apply IH. exact Hn.
  - inversion Hn; subst. constructor; [eapply Hstmt; eassumption|constructor].
  - inversion Hn; subst. constructor; [eapply Hstmt; eassumption|apply IH; assumption].
Qed.

Theorem compile_rereads s ss ps : parse s = ParseOk ss -> Forall names_ok_stmt ss -> compile [] s = COk ps ->
  exists sc t subs q rctes,
    stmt_loop [] None ss = Ok (sc, Some t) /\ split_queries sc [] t = Ok subs /\ rev subs = q :: rctes /\
    let '(names, vals) := let_vals [] (fun _ => XWord []) false ss in
    exists ts, ptoks ps = Some ts /\
      Conv (fun fx => read_stmt fx ts)
           (map (fun sq => (sq_name sq, den_select s sc vals sq)) (rev rctes), den_select s sc vals q).
Proof.
  intros Hp Hn Hc. unfold compile in Hc. rewrite Hp in Hc.
  destruct (compile_stmts s [] ss) as [ps0|] eqn:Ecs; [|discriminate]. injection Hc as <-.
  apply compiled_program_rereads; [|exact Ecs].
  eapply parsed_stmts_wf; [apply parse_sound; exact Hp|exact Hn].
Qed.
