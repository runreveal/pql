(** * What expressions mean (property C01, Props/C01.v): the SQL tree the writer intends
    evaluates, on every row, like the PQL tree. *)
From PQL Require Import Model.Trans Spec.PqlSem Proofs.ExprInd.
From Coq Require Import String.
Local Open Scope list_scope.
Local Notation length := List.length (only parsing).

Lemma builtin_idents_documented :
  builtin_idents = [(p_false, w_FALSE); (p_null, w_NULL); (p_true, w_TRUE)].
Proof. vm_compute. reflexivity. Qed.

Lemma binop_sql_documented :
  forallb (fun k =>
    match k, binop_sql k with
    | KAnd, Some s => str_eqb s w_AND
    | KOr, Some s => str_eqb s w_OR
    | (KPlus | KMinus | KStar | KSlash | KMod | KLT | KLE | KGT | KGE), Some s => str_eqb s (op_name k)
    | (KAnd | KOr | KPlus | KMinus | KStar | KSlash | KMod | KLT | KLE | KGT | KGE), None => false
    | _, Some _ => false
    | _, None => true
    end) all_kinds = true.
Proof. vm_compute. reflexivity. Qed.

Lemma known_funcs_documented :
  known_funcs =
  [(p_countf, (W_writeCountFunction, false)); (p_countif, (W_writeCountIfFunction, false));
   (p_iff, (W_writeIfFunction, true)); (p_iif, (W_writeIfFunction, true));
   (p_isnotnull, (W_writeIsNotNullFunction, true)); (p_isnull, (W_writeIsNullFunction, true));
   (p_not, (W_writeNotFunction, true)); (p_nowf, (W_writeNowFunction, false));
   (p_strcat, (W_writeStrcatFunction, true)); (p_tolower, (W_writeToLowerFunction, true));
   (p_toupper, (W_writeToUpperFunction, true))].
Proof. vm_compute. reflexivity. Qed.

Lemma mentions_refers n e : mentions n e = refers n e.
Proof. reflexivity. Qed.

Definition builtin_names : list str :=
  [p_countf; p_countif; p_iff; p_iif; p_isnotnull; p_isnull; p_not; p_nowf; p_strcat; p_tolower; p_toupper].

Lemma assoc_str_none {A} (t : list (str * A)) n : (forall k, In k (map fst t) -> str_eqb k n = false) -> assoc_str t n = None.
Proof.
  induction t as [|[k v] r IH]; intros H; cbn [assoc_str]; [reflexivity|].
  rewrite (H k (or_introl eq_refl)). apply IH. intros k' Hk'. apply H. right. exact Hk'.
Qed.

Lemma name_cases n : In n builtin_names \/ (Forall (fun k => str_eqb n k = false) builtin_names /\ known_func n = None).
Proof.
  destruct (existsb (str_eqb n) builtin_names) eqn:E.
  - left. apply existsb_exists in E as (k & Hk & Hn). apply str_eqb_eq in Hn. subst k. exact Hk.
  - right. assert (Hall : forall k, In k builtin_names -> str_eqb n k = false).
    { intros k Hk. destruct (str_eqb n k) eqn:Ek; [|reflexivity]. rewrite <- E. symmetry. apply existsb_exists. eauto. }
    split; [apply Forall_forall, Hall|].
    unfold known_func. apply assoc_str_none. rewrite known_funcs_documented. intros k Hk.
    rewrite str_eqb_sym. apply Hall, Hk.
Qed.

Section Meaning.
Variable F : fenv.
Variable is_bound : str -> bool.
Variable jm : bool.

(** assumed of the interpretation [F] of function names: those the writer emits on its own
    (coalesce, lower, LOWER, UPPER) are not aggregates, and count is one *)
Hypothesis coalesce_not_agg : is_agg F w_coalesce = false.
Hypothesis lower_not_agg : is_agg F w_lower = false /\ is_agg F w_LOWER = false /\ is_agg F w_UPPER = false.
Hypothesis count_is_agg : is_agg F w_count = true.

Lemma fold_concat_eq (vs : list value) (xs : list sexpr) e a x :
  seval F e x = a -> map (seval F e) xs = vs ->
  seval F e (fold_left (fun acc b => XBin w_concat acc b) xs x) = fold_left (fun acc b => fn F p_concat [acc; b]) vs a.
Proof.
  revert vs a x. induction xs as [|y r IH]; intros vs a x Hx Hm; cbn [map] in Hm; subst vs; cbn [fold_left]; [exact Hx|].
  apply IH; [|reflexivity]. cbn [seval]. rewrite Hx. reflexivity.
Qed.

Lemma word_meaning e n :
  seval F e (match assoc_str builtin_idents n with Some w => XWord w | None => XCol [n] end) =
  if str_eqb n p_true then VBool true else if str_eqb n p_false then VBool false
  else if str_eqb n p_null then VNull else col_value e [n].
Proof.
  rewrite builtin_idents_documented. cbn [assoc_str]. rewrite !(str_eqb_sym _ n).
  destruct (str_eqb n p_false) eqn:E1; [apply str_eqb_eq in E1; subst n; reflexivity|].
  destruct (str_eqb n p_null) eqn:E2; [apply str_eqb_eq in E2; subst n; reflexivity|].
  destruct (str_eqb n p_true) eqn:E3; [apply str_eqb_eq in E3; subst n|]; reflexivity.
Qed.

(** [coalesce(x, FALSE)]: how the writer keeps NULL out of a condition *)
Lemma guard_meaning e x : seval F e (XCall w_coalesce [x; XWord w_FALSE]) = v_coalesce (seval F e x) (VBool false).
Proof. cbn [seval]. rewrite coalesce_not_agg. reflexivity. Qed.

Lemma guarded_eq a b : v_coalesce (v_eq a b) (VBool false) = VBool (not_null2 a b && value_eqb a b).
Proof. destruct a, b; reflexivity. Qed.

Lemma guarded_ne a b : v_coalesce (v_not (v_eq a b)) (VBool false) = VBool (not_null2 a b && negb (value_eqb a b)).
Proof. destruct a, b; reflexivity. Qed.

Lemma guarded_true v : is_true (v_coalesce v (VBool false)) = is_true v.
Proof. destruct v as [|[]| |]; reflexivity. Qed.

(** [iff] and [iif]: CASE WHEN on the guarded condition *)
Lemma if_call_meaning e args :
  map (seval F e) (map (trans is_bound jm) args) = map (peval F is_bound jm e) args ->
  seval F e (match map (trans is_bound jm) args with
             | [c; t; f] => XCase (XCall w_coalesce [c; XWord w_FALSE]) t f
             | _ => XWord w_NULL
             end) =
  match args with
  | [c; t; f] => if is_true (peval F is_bound jm e c) then peval F is_bound jm e t else peval F is_bound jm e f
  | _ => VNull
  end.
Proof.
  destruct args as [|c [|t [|f [|? ?]]]]; try reflexivity. cbn [map]. intros [= <- <- <-].
  rewrite <- guarded_true, <- guard_meaning. reflexivity.
Qed.

Theorem trans_meaning : forall x e, seval F e (trans is_bound jm x) = peval F is_bound jm e x.
Proof.
  assert (Hmap : forall l, Forall (fun x => forall e, seval F e (trans is_bound jm x) = peval F is_bound jm e x) l ->
            forall e, map (seval F e) (map (trans is_bound jm) l) = map (peval F is_bound jm e) l).
  { intros l H e. rewrite map_map. apply map_ext_Forall. revert H. apply Forall_impl. intros a Ha. apply Ha. }
  induction x using expr_ind'; intros e.
  - (* identifiers *)
    destruct ps as [|p [|p2 r]]; cbn [trans peval]; try reflexivity.
    destruct (negb (iquoted p) && is_bound (iname p)); [reflexivity|].
    destruct (negb (iquoted p)); [apply word_meaning|reflexivity].
  - (* only the four equality tests are rewritten *)
    cbn [trans peval]. rewrite <- IHx1, <- IHx2.
    generalize (trans is_bound jm x1) (trans is_bound jm x2). intros a b.
    destruct lower_not_agg as (Hlow & _).
    destruct op; try reflexivity.
    + change mentions with refers. change w_left with p_left. change w_right with p_right.
      destruct (jm && _); [reflexivity|]. rewrite guard_meaning. apply guarded_eq.
    + rewrite guard_meaning. apply guarded_ne.
    + cbn [seval map]. rewrite Hlow. reflexivity.
    + cbn [seval map]. rewrite Hlow. reflexivity.
  - (* unary *) cbn [trans peval seval]. rewrite IHx. destruct op; reflexivity.
  - (* in *) cbn [trans peval seval]. rewrite IHx, (Hmap vs H). reflexivity.
  - (* parens *) cbn [trans peval]. apply IHx.
  - (* literals *) destruct k; reflexivity.
  - (* calls *)
    cbn [trans peval]. pose proof (Hmap args H) as Hargs.
    destruct lower_not_agg as (_ & HLOW & HUP).
    destruct f as [n sp q]. cbn [iname]. rewrite <- Hargs.
    destruct (name_cases n) as [Hin | [Hnone Hkf]].
    + (* a documented built-in: writer and [peval] branch found by evaluation *)
      cbn [In builtin_names] in Hin.
      repeat destruct Hin as [Hin|Hin]; try contradiction; subst n;
        match goal with |- context [known_func ?c] => let v := eval vm_compute in (known_func c) in change (known_func c) with v end;
        cbn beta iota.
      * (* count *) change p_countf with w_count. cbn [seval]. rewrite count_is_agg. reflexivity.
      * (* countif *)
        destruct args as [|a [|? ?]]; try reflexivity.
        inversion H as [|? ? Ha _]. cbn [map seval].
        rewrite (filter_ext _ _ (fun r => f_equal is_true (Ha (mkEnv r (e_left e) (e_right e) [r])))). reflexivity.
      * (* iff *) apply if_call_meaning, Hargs.
      * (* iif *) apply if_call_meaning, Hargs.
      * (* isnotnull *)
        destruct (map (trans is_bound jm) args) as [|a [|? ?]]; try reflexivity.
        cbn [map seval]. destruct (seval F e a); reflexivity.
      * (* isnull *) destruct (map (trans is_bound jm) args) as [|a [|? ?]]; reflexivity.
      * (* not *) destruct (map (trans is_bound jm) args) as [|a [|? ?]]; reflexivity.
      * (* now *) reflexivity.
      * (* strcat *)
        destruct (map (trans is_bound jm) args) as [|a r]; [reflexivity|].
        apply fold_concat_eq; reflexivity.
      * (* tolower *)
        destruct (map (trans is_bound jm) args) as [|a [|? ?]]; try reflexivity.
        cbn [map seval]. rewrite HLOW. reflexivity.
      * (* toupper *)
        destruct (map (trans is_bound jm) args) as [|a [|? ?]]; try reflexivity.
        cbn [map seval]. rewrite HUP. reflexivity.
    + (* passed through by name *)
      rewrite Hkf. unfold builtin_names in Hnone. repeat (apply Forall_cons_iff in Hnone as [-> Hnone]).
      cbn [orb seval]. change (L "coalesce") with w_coalesce.
      destruct (is_agg F n).
      { f_equal. apply map_ext. intros r. apply Hargs. }
      destruct (str_eqb n w_coalesce); [|reflexivity].
      destruct (map (trans is_bound jm) args) as [|a [|b [|? ?]]]; reflexivity.
  - (* index *) cbn [trans peval seval]. rewrite IHx1, IHx2. reflexivity.
Qed.

End Meaning.
