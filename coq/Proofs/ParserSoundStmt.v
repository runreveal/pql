(** * ParserSound.v continued for operators, statements and programs, with the same invariant, up to
    [parse_sound] (C07, C08, C10, C12). *)
From PQL Require Import Spec.Grammar Proofs.ParserFacts Proofs.ExprInd Proofs.ParserSound.
From Coq Require Import Lia ZArith.
Local Open Scope list_scope.
Local Open Scope nat_scope.

Lemma is_word_kw w t : is_word w t = true -> kw_tok [w] (tok_span t) t.
Proof.
  unfold is_word. intros H. apply Bool.andb_true_iff in H as [Hk Hv].
  apply is_kind_eq in Hk. apply str_eqb_eq in Hv. repeat split; [exact Hk|left; auto].
Qed.

(** [p_sort_terms], [p_extend_cols] and [p_group_cols] are one comma loop over an element parser. *)
Section Sep.
Context {A : Type} (elem : nat -> list token -> option A * list token * errs).
Fixpoint p_sep (n fuel : nat) (ts : list token) : option (list A) * list token * errs :=
  match n with
  | O => (None, ts, fuel_err)
  | S n' =>
    let '(c, r1, e1) := elem fuel ts in
    if negb (no_err e1) then (None, r1, opaque e1)
    else
      match r1 with
      | sep :: r2 =>
        if is_kind KComma sep then
          let '(tl, r3, e3) := p_sep n' fuel r2 in
          (when_ok e3 (opt_map2 cons c tl), r3, e3)
        else (option_map (fun c => [c]) c, r1, [])
      | [] => (option_map (fun c => [c]) c, [], [])
      end
  end.
End Sep.

Lemma p_sort_terms_sep srclen : p_sort_terms srclen = p_sep (p_sort_term srclen). Proof. reflexivity. Qed.
Lemma p_extend_cols_sep srclen : p_extend_cols srclen = p_sep (p_ext_col srclen). Proof. reflexivity. Qed.
Lemma p_group_cols_sep srclen : p_group_cols srclen = p_sep (p_ext_col srclen). Proof. reflexivity. Qed.

Section Stmts.
Variable srclen : nat.

(** the second stage of [p_sort_term], given what asc/desc decided *)
Definition p_nulls (x : option expr) (asc : bool) (aspan : span) (nf0 : bool) (r : list token)
  : option sort_term * list token * errs :=
  match r with
  | t :: r' =>
    if is_word w_nulls t then
      match r' with
      | t2 :: r'' =>
        if is_word w_first t2 then (option_map (fun x => mkSortTerm x asc aspan true (Some (tstart t, tend t2))) x, r'', [])
        else if is_word w_last t2 then (option_map (fun x => mkSortTerm x asc aspan false (Some (tstart t, tend t2))) x, r'', [])
        else (None, r', err_at (tstart t2))
      | [] => (None, [], err_at srclen)
      end
    else (option_map (fun x => mkSortTerm x asc aspan nf0 None) x, r, [])
  | [] => (option_map (fun x => mkSortTerm x asc aspan nf0 None) x, [], [])
  end.

Lemma p_sort_term_eq f ts :
  p_sort_term srclen f ts =
    let '(x, r1, e1) := p_expr srclen f ts in
    if negb (no_err e1) then (None, r1, e1)
    else
      match r1 with
      | [] => (option_map (fun x => mkSortTerm x false None false None) x, [], [])
      | t :: r =>
        if is_word w_asc t then p_nulls x true (tok_span t) true r
        else if is_word w_desc t then p_nulls x false (tok_span t) false r
        else if is_word w_nulls t then p_nulls x false None false r1
        else (option_map (fun x => mkSortTerm x false None false None) x, r1, [])
      end.
Proof. reflexivity. Qed.

Definition nulls_ok (x : option expr) asc aspan nf0 (r : list token) (t : option sort_term) (rest : list token) : Prop :=
  forall t', t = Some t' -> exists x0 tn nf nsp, x = Some x0 /\ r = tn ++ rest /\ toks_nulls nf0 nf nsp tn /\ t' = mkSortTerm x0 asc aspan nf nsp.

Lemma p_nulls_out x asc aspan nf0 ts0 r t rest e : within ts0 r -> p_nulls x asc aspan nf0 r = (t, rest, e) ->
  Out srclen NeverNf True ts0 r rest e (nulls_ok x asc aspan nf0 r t rest).
Proof.
  intros Hw. unfold p_nulls.
  assert (Hnone : nulls_ok x asc aspan nf0 r (option_map (fun x => mkSortTerm x asc aspan nf0 None) x) r).
  { intros t' Hx. apply option_map_some in Hx as (x0 & -> & ->). exists x0, [], nf0, None. repeat split. constructor. }
  destruct r as [|t1 r']; [leaf; intros _; exact Hnone|]. destruct (is_word w_nulls t1) eqn:En; [|leaf; intros _; exact Hnone].
  destruct r' as [|t2 r'']; [leaf|]. destruct (is_word w_first t2) eqn:Ef.
  { leaf. intros _ t' Hx. apply option_map_some in Hx as (x0 & -> & ->). exists x0, [t1; t2], true, (Some (tstart t1, tend t2)).
    repeat split. apply tn_first; apply is_word_kw; assumption. }
  destruct (is_word w_last t2) eqn:El; leaf.
  intros _ t' Hx. apply option_map_some in Hx as (x0 & -> & ->). exists x0, [t1; t2], false, (Some (tstart t1, tend t2)).
  repeat split. apply tn_last; apply is_word_kw; assumption.
Qed.

Lemma p_sort_term_out f : OutOK srclen (tree_of toks_sort_term gsort_term) Restores 4 f (p_sort_term srclen f).
Proof.
  intros ts0 ts x rest e Hw. rewrite p_sort_term_eq. destruct (p_expr srclen f ts) as [[x0 r1] e1] eqn:Ee. sub (p_expr_out srclen f) Ee.
  destruct (negb (no_err e1)) eqn:Ene; [leaf|]. apply no_err_negb in Ene. subst e1.
  assert (Hfin : forall asc asp dflt ta r t rest', r1 = ta ++ r -> toks_dir asc asp dflt ta -> nulls_ok x0 asc asp dflt r t rest' ->
            reads (tree_of toks_sort_term gsort_term) ts t rest').
  { intros asc asp dflt ta r t rest' Hr Hd Hn t' Ht. destruct (Hn t' Ht) as (x1 & tn & nf & nsp & -> & -> & Hn' & ->).
    destruct (Ee eq_refl x1 eq_refl) as (u1 & -> & Hu1 & Hg & _). subst r1.
    exists (u1 ++ ta ++ tn). split; [rewrite <- !app_assoc; reflexivity|]. split; [econstructor; eassumption|exact Hg]. }
  assert (Hplain : reads (tree_of toks_sort_term gsort_term) ts (option_map (fun x => mkSortTerm x false None false None) x0) r1).
  { apply (Hfin false None false [] r1); [reflexivity|constructor|]. intros t' Hx. apply option_map_some in Hx as (x1 & -> & ->).
    exists x1, [], false, None. repeat split. constructor. }
  destruct r1 as [|t1 r]; [leaf; intros _; exact Hplain|].
  destruct (is_word w_asc t1) eqn:Ea.
  { destruct (p_nulls _ _ _ _ _) as [[y r2] e2] eqn:En. sub p_nulls_out En. leaf.
    intros He2. apply (Hfin true (tok_span t1) true [t1] r); [reflexivity|constructor; apply is_word_kw; exact Ea|exact (En He2)]. }
  destruct (is_word w_desc t1) eqn:Ed.
  { destruct (p_nulls _ _ _ _ _) as [[y r2] e2] eqn:En. sub p_nulls_out En. leaf.
    intros He2. apply (Hfin false (tok_span t1) false [t1] r); [reflexivity|constructor; apply is_word_kw; exact Ed|exact (En He2)]. }
  destruct (is_word w_nulls t1) eqn:En1; [|leaf; intros _; exact Hplain].
  destruct (p_nulls _ _ _ _ _) as [[y r2] e2] eqn:En. sub p_nulls_out En. leaf.
  intros He2. apply (Hfin false None false [] (t1 :: r)); [reflexivity|constructor|exact (En He2)].
Qed.

Lemma p_sort_term_nf f ts t rest e : p_sort_term srclen f ts = (t, rest, e) -> is_nf e = true -> rest = ts.
Proof. intros H. exact (out_nf _ _ _ _ _ _ _ _ (p_sort_term_out f _ _ _ _ _ (within_refl _) H)). Qed.

Lemma p_row_count_out f : OutOK srclen (tree_of toks_expr grow_count) Restores 4 f (p_row_count srclen f).
Proof.
  intros ts0 ts x rest e Hw. unfold p_row_count. destruct (p_expr srclen f ts) as [[x0 r1] e1] eqn:Ee. sub (p_expr_out srclen f) Ee.
  destruct (negb (no_err e1)) eqn:Ene; [leaf|]. apply no_err_negb in Ene. subst e1.
  assert (Hcount : forall a, x0 = Some a -> match a with ELit _ k v => lit_is_integer k v | _ => true end = true ->
            exists used, ts = used ++ r1 /\ tree_of toks_expr grow_count a used).
  { intros a Hx Hint. destruct (Ee eq_refl a Hx) as (u & Hu & Hxu & Hg & _). exists u. split; [exact Hu|]. split; [exact Hxu|].
    unfold grow_count. rewrite Hg. exact Hint. }
  destruct x0 as [[]|]; try (leaf; intros _ a [= <-]; apply Hcount; reflexivity).
  destruct (lit_is_integer k v) eqn:Eint; leaf. intros _ a [= <-]. apply Hcount; [reflexivity|exact Eint].
Qed.

Lemma p_ext_col_out f : OutOK srclen (tree_of toks_ext_col gext_col) Restores 4 f (p_ext_col srclen f).
Proof.
  intros ts0 ts c rest e Hw. unfold p_ext_col.
  assert (Hplain : (let '(x, r1, e) := p_expr srclen f ts in (when_ok e (option_map (mkExtCol None None) x), r1, e)) = (c, rest, e) ->
                   Out srclen Restores (4 * length ts + 4 <= f) ts0 ts rest e (reads (tree_of toks_ext_col gext_col) ts c rest)).
  { destruct (p_expr srclen f ts) as [[x r1] e1] eqn:Ee. sub (p_expr_out srclen f) Ee. leaf.
    intros -> a Hx. apply option_map_some in Hx as (x0 & -> & ->).
    destruct (Ee eq_refl x0 eq_refl) as (u & Hu & Hx & Hg & _). exists u. split; [exact Hu|]. split; [constructor; exact Hx|exact Hg]. }
  destruct (p_ident srclen ts) as [[[i|] ri] ei] eqn:Ei; [|exact Hplain]. pose proof (p_ident_sound _ _ _ _ _ Ei) as (ti & Hts & Hi & _).
  sub (p_ident_out srclen) Ei.
  destruct ri as [|a r]; [exact Hplain|]. destruct (is_kind KAssign a) eqn:Ea; [|exact Hplain].
  destruct (p_expr srclen f r) as [[x r1] e1] eqn:Ee. sub (p_expr_out srclen f) Ee. leaf.
  intros He a0 Hx. apply opaque_nil in He. subst e1. apply option_map_some in Hx as (x0 & -> & ->).
  destruct (Ee eq_refl x0 eq_refl) as (u & -> & Hx & Hg & _). exists (ti :: a :: u). split; [reflexivity|].
  split; [constructor; [exact Hi|apply is_kind_tok; exact Ea|exact Hx]|exact Hg].
Qed.

Lemma p_ext_col_nf f ts c rest e : p_ext_col srclen f ts = (c, rest, e) -> is_nf e = true -> rest = ts.
Proof. intros H. exact (out_nf _ _ _ _ _ _ _ _ (p_ext_col_out f _ _ _ _ _ (within_refl _) H)). Qed.

Lemma p_render_prop_out f : OutOK srclen (tree_of toks_render_prop grender_prop) AnyNf 4 f (p_render_prop srclen f).
Proof.
  intros ts0 ts p rest e Hw. unfold p_render_prop. destruct (p_ident srclen ts) as [[[name|] r] e0] eqn:Ei; [|sub (p_ident_out srclen) Ei; leaf].
  pose proof (p_ident_sound _ _ _ _ _ Ei) as (ti & Hts & Hi & _). sub (p_ident_out srclen) Ei.
  destruct r as [|a r1]; [leaf|]. destruct (is_kind KAssign a) eqn:Ea; [|leaf].
  destruct (p_expr srclen f r1) as [[v r2] e2] eqn:Ee. sub (p_expr_out srclen f) Ee.
  destruct (negb (no_err e2)) eqn:Ene; leaf. apply no_err_negb in Ene. subst e2.
  intros _ p Hx. apply option_map_some in Hx as (x0 & -> & ->).
  destruct (Ee eq_refl x0 eq_refl) as (u & -> & Hx & Hg & _).
  exists (ti :: a :: u). split; [reflexivity|]. split; [constructor; [exact Hi|apply is_kind_tok; exact Ea|exact Hx]|exact Hg].
Qed.

(** the loops run on a counter [n], enough when it exceeds the number of tokens *)
Definition LoopOK {A} (W : A -> list token -> Prop) (f n : nat) (p : list token -> option A * list token * errs) : Prop :=
  forall ts0 ts l rest e, within ts0 ts -> p ts = (l, rest, e) ->
    Out srclen NeverNf (length ts < n /\ 4 * length ts + 4 <= f) ts0 ts rest e (reads W ts l rest).

Lemma p_sep_out {A} (elem : nat -> list token -> option A * list token * errs) (P : A -> list token -> Prop) (g : A -> bool) b f :
  OutOK srclen (tree_of P g) b 4 f (elem f) -> forall n, LoopOK (tree_of (toks_sep P) (forallb g)) f n (p_sep elem n f).
Proof.
  intros Helem. induction n as [|n IH]; intros ts0 ts l rest e Hw; cbn [p_sep]; [leaf|].
  destruct (elem f ts) as [[c r1] e1] eqn:Ec. sub Helem Ec.
  destruct (negb (no_err e1)) eqn:Ene; [leaf|]. apply no_err_negb in Ene. subst e1.
  assert (Hone : reads (tree_of (toks_sep P) (forallb g)) ts (option_map (fun c => [c]) c) r1).
  { intros l0 Hx. apply option_map_some in Hx as (t0 & -> & ->). destruct (Ec eq_refl t0 eq_refl) as (u & Hu & Ht & Hg).
    exists u. split; [exact Hu|]. split; [constructor; exact Ht|]. cbn [forallb]. rewrite Hg. reflexivity. }
  destruct r1 as [|sep r2]; [leaf; intros _; exact Hone|]. destruct (is_kind KComma sep) eqn:Ecm; [|leaf; intros _; exact Hone].
  destruct (p_sep elem n f r2) as [[tl r3] e3] eqn:Er. sub IH Er. leaf.
  intros -> l0 Hx. cbn [when_ok no_err] in Hx. apply opt_map2_some in Hx as (t0 & tl0 & -> & -> & ->).
  destruct (Ec eq_refl t0 eq_refl) as (u & -> & Ht & Hg). destruct (Er eq_refl tl0 eq_refl) as (u2 & -> & Hl & Hgl).
  exists (u ++ sep :: u2). split; [rewrite <- app_assoc; reflexivity|].
  split; [constructor; [exact Ht|apply is_kind_eq; exact Ecm|exact Hl]|]. cbn [forallb]. rewrite Hg, Hgl. reflexivity.
Qed.

Lemma p_sort_terms_out f n : LoopOK (tree_of (toks_sep toks_sort_term) (forallb gsort_term)) f n (p_sort_terms srclen n f).
Proof. exact (p_sep_out _ _ _ _ _ (p_sort_term_out f) n). Qed.
Lemma p_extend_cols_out f n : LoopOK (tree_of (toks_sep toks_ext_col) (forallb gext_col)) f n (p_extend_cols srclen n f).
Proof. exact (p_sep_out _ _ _ _ _ (p_ext_col_out f) n). Qed.
Lemma p_group_cols_out f n : LoopOK (tree_of (toks_sep toks_ext_col) (forallb gext_col)) f n (p_group_cols srclen n f).
Proof. exact (p_sep_out _ _ _ _ _ (p_ext_col_out f) n). Qed.

Lemma p_project_cols_out f : forall n, LoopOK (tree_of (toks_sep toks_proj_col) (forallb gproj_col)) f n (p_project_cols srclen n f).
Proof.
  induction n as [|n IH]; intros ts0 ts l rest e Hw; cbn [p_project_cols]; [leaf|].
  destruct (p_ident srclen ts) as [[[name|] r] e0] eqn:Ei; [|sub (p_ident_out srclen) Ei; leaf].
  pose proof (p_ident_sound _ _ _ _ _ Ei) as (ti & -> & Hi & _). sub (p_ident_out srclen) Ei. cbv zeta beta.
  (* one more column after [col] and its comma *)
  assert (Hmore : forall r' col, within ts0 r' -> length r' < length (ti :: r) ->
     (forall c0, col = Some c0 -> gproj_col c0 = true /\ exists tcol c1, ti :: r = (tcol ++ [c1]) ++ r' /\ tkind c1 = KComma /\ toks_proj_col c0 tcol) ->
     (let '(tl, r3, e3) := p_project_cols srclen n f r' in (when_ok e3 (opt_map2 cons col tl), r3, e3)) = (l, rest, e) ->
     Out srclen NeverNf (length (ti :: r) < S n /\ 4 * length (ti :: r) + 4 <= f) ts0 (ti :: r) rest e
       (reads (tree_of (toks_sep toks_proj_col) (forallb gproj_col)) (ti :: r) l rest)).
  { intros r' col Hr Hl Hcol. destruct (p_project_cols srclen n f r') as [[tl r3] e3] eqn:Er. sub IH Er. leaf.
    intros -> l0 Hx. cbn [when_ok no_err] in Hx. apply opt_map2_some in Hx as (c0 & tl0 & -> & -> & ->).
    destruct (Hcol c0 eq_refl) as (Hg0 & tcol & c1 & Hu & Hc1 & Hc0). destruct (Er eq_refl tl0 eq_refl) as (u2 & -> & Hl2 & Hgl).
    exists (tcol ++ c1 :: u2). split; [rewrite Hu, <- !app_assoc; reflexivity|].
    split; [constructor; assumption|]. cbn [forallb]. rewrite Hg0, Hgl. reflexivity. }
  assert (Hname : reads (tree_of (toks_sep toks_proj_col) (forallb gproj_col)) (ti :: r) (Some [mkProjCol name None None]) r).
  { intros l0 [= <-]. exists [ti]. split; [reflexivity|]. split; [constructor; constructor; exact Hi|reflexivity]. }
  destruct r as [|sep r1]; [leaf; intros _; exact Hname|].
  destruct (is_kind KComma sep) eqn:Ec.
  { apply Hmore; [within_heads; assumption|cbn [length] in *; lia|].
    intros c0 [= <-]. split; [reflexivity|]. exists [ti], sep. repeat split; [apply is_kind_eq; exact Ec|constructor; exact Hi]. }
  destruct (is_kind KAssign sep) eqn:Ea; [|leaf; intros _; exact Hname].
  destruct (p_expr srclen f r1) as [[x r2] e2] eqn:Ee. sub (p_expr_out srclen f) Ee.
  destruct (negb (no_err e2)) eqn:Ene; [leaf|]. apply no_err_negb in Ene. subst e2.
  assert (Hcol : forall c0, option_map (fun x => mkProjCol name (tok_span sep) (Some x)) x = Some c0 ->
            gproj_col c0 = true /\ exists u, r1 = u ++ r2 /\ toks_proj_col c0 (ti :: sep :: u)).
  { intros c0 Hc0. apply option_map_some in Hc0 as (x0 & -> & ->). destruct (Ee eq_refl x0 eq_refl) as (u & Hu & Hx & Hg & _).
    split; [exact Hg|]. exists u. split; [exact Hu|]. constructor; [exact Hi|apply is_kind_tok; exact Ea|exact Hx]. }
  destruct r2 as [|sep2 r3].
  { leaf. intros _ l0 Hx. apply option_map_some in Hx as (c0 & Hc0 & ->). destruct (Hcol c0 Hc0) as (Hg & u & -> & Hc).
    exists (ti :: sep :: u). split; [reflexivity|]. split; [constructor; exact Hc|]. cbn [forallb]. rewrite Hg. reflexivity. }
  destruct (is_kind KComma sep2) eqn:Ec2; [|leaf].
  apply Hmore; [within_heads; assumption|cbn [length] in *; lia|].
  intros c0 Hc0. destruct (Hcol c0 Hc0) as (Hg & u & -> & Hc). split; [exact Hg|]. exists (ti :: sep :: u), sep2.
  split; [cbn [app]; rewrite <- app_assoc; reflexivity|]. split; [apply is_kind_eq; exact Ec2|exact Hc].
Qed.

(** the first loop of summarize: no column (nothing consumed), or a list, possibly followed by one
    comma (then [tc] is set and the loop did not finish) *)
Definition summ_ok (ac : bool) (ts : list token) (l : option (list ext_col)) (rest : list token) (fin tc : bool) : Prop :=
  forall l', l = Some l' -> forallb gext_col l' = true /\
    ((l' = [] /\ rest = ts /\ fin = false /\ tc = ac) \/
     (exists used, toks_sep toks_ext_col l' used /\
       ((ts = used ++ rest /\ tc = false) \/ (exists c, ts = used ++ c :: rest /\ tkind c = KComma /\ tc = true /\ fin = false)))).

Lemma p_summarize_cols_out f : forall n ac ts0 ts l rest e fin tc, within ts0 ts -> p_summarize_cols srclen n f ac ts = (l, rest, e, fin, tc) ->
  Out srclen NeverNf (length ts < n /\ 4 * length ts + 4 <= f) ts0 ts rest e (summ_ok ac ts l rest fin tc).
Proof.
  induction n as [|n IH]; intros ac ts0 ts l rest e fin tc Hw; cbn [p_summarize_cols]; [leaf|].
  destruct (p_ext_col srclen f ts) as [[c r1] e1] eqn:Ec. sub (p_ext_col_out f) Ec.
  destruct (is_nf e1) eqn:Enf. { leaf. intros _ l' [= <-]. split; [reflexivity|]. left. auto. }
  destruct (negb (no_err e1)) eqn:Ene; [leaf|]. apply no_err_negb in Ene. subst e1.
  assert (Hone : forall b, summ_ok ac ts (option_map (fun c => [c]) c) r1 b false).
  { intros b l' Hx. apply option_map_some in Hx as (c0 & -> & ->).
    destruct (Ec eq_refl c0 eq_refl) as (u & Hu & Ht & Hg). cbn [forallb]. rewrite Hg. split; [reflexivity|]. right.
    exists u. split; [constructor; exact Ht|left; auto]. }
  destruct r1 as [|sep r2]; [leaf; intros _; apply Hone|]. destruct (is_kind KComma sep) eqn:Ecm; [|leaf; intros _; apply Hone].
  destruct (p_summarize_cols srclen n f true r2) as [[[[tl r3] e3] fin'] tc'] eqn:Er. sub IH Er. leaf.
  intros -> l' Hx. cbn [when_ok no_err] in Hx. apply opt_map2_some in Hx as (c0 & tl0 & -> & -> & ->).
  destruct (Ec eq_refl c0 eq_refl) as (u & -> & Ht & Hg).
  destruct (Er eq_refl tl0 eq_refl) as [Hgl Hcase]. cbn [forallb]. rewrite Hg, Hgl. split; [reflexivity|]. right.
  destruct Hcase as [(-> & -> & -> & ->)|(u2 & Hl & Hcase)].
  - exists u. split; [constructor; exact Ht|]. right. exists sep. repeat split. apply is_kind_eq; exact Ecm.
  - exists (u ++ sep :: u2). split; [constructor; [exact Ht|apply is_kind_eq; exact Ecm|exact Hl]|].
    destruct Hcase as [(-> & ->)|(c1 & -> & Hc1 & -> & ->)].
    + left. split; [rewrite <- app_assoc; reflexivity|reflexivity].
    + right. exists c1. repeat split; [rewrite <- app_assoc; reflexivity|exact Hc1].
Qed.

Lemma p_summarize_cols_fin f : forall n ac ts l rest e fin tc, p_summarize_cols srclen n f ac ts = (l, rest, e, fin, tc) -> fin = true -> tc = false.
Proof.
  induction n as [|n IH]; intros ac ts l rest e fin tc; cbn [p_summarize_cols]; [intros [= <- <- <- <- <-]; reflexivity|].
  destruct (p_ext_col srclen f ts) as [[c r1] e1].
  destruct (is_nf e1); [intros [= <- <- <- <- <-]; discriminate|].
  destruct (negb (no_err e1)); [intros [= <- <- <- <- <-]; reflexivity|].
  destruct r1 as [|sep r2]; [intros [= <- <- <- <- <-]; reflexivity|].
  destruct (is_kind KComma sep); [|intros [= <- <- <- <- <-]; reflexivity].
  destruct (p_summarize_cols srclen n f true r2) as [[[[tl r3] e3] fin'] tc'] eqn:Er. intros [= <- <- <- <- <-]. exact (IH _ _ _ _ _ _ _ Er).
Qed.

Lemma p_summarize_cols_notfin f : forall n ac ts l rest e tc, p_summarize_cols srclen n f ac ts = (l, rest, e, false, tc) -> e = [].
Proof.
  induction n as [|n IH]; intros ac ts l rest e tc; cbn [p_summarize_cols]; [discriminate|].
  destruct (p_ext_col srclen f ts) as [[c r1] e1].
  destruct (is_nf e1); [intros [= <- <- <- <-]; reflexivity|].
  destruct (negb (no_err e1)); [discriminate|].
  destruct r1 as [|sep r2]; [discriminate|].
  destruct (is_kind KComma sep); [|intros [= <- <- <- <-]; reflexivity].
  destruct (p_summarize_cols srclen n f true r2) as [[[[tl r3] e3] fin'] tc'] eqn:Er. intros [= <- <- <- -> <-]. exact (IH _ _ _ _ _ _ Er).
Qed.

Definition props_of (ps : list render_prop * span) (used : list token) : Prop :=
  exists u tr, used = u ++ [tr] /\ toks_sep toks_render_prop (fst ps) u /\ is_tok KRParen (snd ps) tr /\ forallb grender_prop (fst ps) = true.

Lemma p_render_props_out f : forall n, LoopOK props_of f n (p_render_props srclen n f).
Proof.
  induction n as [|n IH]; intros ts0 ts l rest e Hw; cbn [p_render_props]; [leaf|].
  destruct (p_render_prop srclen f ts) as [[p r1] e1] eqn:Ep. sub (p_render_prop_out f) Ep.
  destruct (negb (no_err e1)) eqn:Ene; [leaf|]. apply no_err_negb in Ene. subst e1.
  destruct r1 as [|t r2]; [leaf|]. destruct (is_kind KRParen t) eqn:Erp.
  { leaf. intros _ ps Hx. apply option_map_some in Hx as (p0 & -> & ->).
    destruct (Ep eq_refl p0 eq_refl) as (u & -> & Hp & Hg).
    exists (u ++ [t]). split; [rewrite <- app_assoc; reflexivity|]. exists u, t. cbn [fst snd forallb]. rewrite Hg.
    split; [reflexivity|]. split; [constructor; exact Hp|]. split; [apply is_kind_tok; exact Erp|reflexivity]. }
  destruct (is_kind KComma t) eqn:Ec; [|leaf].
  destruct (p_render_props srclen n f r2) as [[tl r3] e3] eqn:Er. sub IH Er. leaf.
  intros -> ps Hx. cbn [when_ok no_err] in Hx. apply opt_map2_some in Hx as (p0 & tl0 & -> & -> & ->).
  destruct (Ep eq_refl p0 eq_refl) as (u & -> & Hp & Hg).
  destruct (Er eq_refl tl0 eq_refl) as (u2' & -> & u2 & tr & -> & Hl & Hr & Hgl).
  exists (u ++ t :: u2 ++ [tr]). split; [rewrite <- !app_assoc; cbn [app]; rewrite <- app_assoc; reflexivity|]. exists (u ++ t :: u2), tr. cbn [fst snd forallb]. rewrite Hg, Hgl.
  split; [rewrite <- app_assoc; reflexivity|]. split; [constructor; [exact Hp|apply is_kind_eq; exact Ec|exact Hl]|]. split; [exact Hr|reflexivity].
Qed.

Lemma p_tabular_S f (ts : list token) :
  p_tabular srclen (S f) ts =
    match p_ident srclen ts with
    | (None, r, e) => (None, r, e)
    | (Some name, r, _) =>
      let '(ops, rest, e) := p_operators srclen f r in
      (when_ok e (option_map (mkTab name) ops), rest, e)
    end.
Proof. reflexivity. Qed.

Lemma p_operators_S f (ts : list token) :
  p_operators srclen (S f) ts =
    match ts with
    | pipe :: r =>
      if is_kind KPipe pipe then
        let '(sub, rest) := split KPipe r in
        let '(op, e1) :=
          match sub with
          | [] => (None, err_at (tstart pipe))
          | name :: sr =>
            if negb (is_kind KIdentifier name) then (None, err_at (tstart name))
            else
              let '(op, subrest, eo, known) := p_operator srclen f (tok_span pipe) name sr in
              if known then (op, eo ++ end_split subrest) else (None, eo)
          end in
        let '(ops, rest', e2) := p_operators srclen f rest in
        (when_ok (e1 ++ e2) (opt_map2 cons op ops), rest', e1 ++ e2)
      else (Some [], ts, [])
    | [] => (Some [], [], [])
    end.
Proof. reflexivity. Qed.

(** the part of a join after the optional `kind = flavor` *)
Definition after_kind f (pipe kw ksp kasp : span) (flavor : option ident) (r2 : list token) (e0 : errs)
  : option operator * list token * errs * bool :=
  match r2 with
  | lp :: r3 =>
    if is_kind KLParen lp then
      let '(sub, rest) := split KRParen r3 in
      let '(rtab, subrest, er) := p_tabular srclen f sub in
      let e1 := e0 ++ opaque er ++ end_split subrest in
      match rest with
      | rp :: r4 =>
        if is_kind KRParen rp then
          match r4 with
          | on :: r5 =>
            if is_word w_on on then
              let '(conds, r6, ec) := p_expr_list srclen f r5 in
              let e2 := e1 ++ opaque ec in
              (when_ok e2 (opt_map2 (fun rt c =>
                 OJoin pipe kw ksp kasp flavor (tok_span lp) (tsrc rt) (tops rt) (tok_span rp) (tok_span on) c)
                 rtab conds), r6, e2, true)
            else (None, r5, e1 ++ err_at (tstart on), true)
          | [] => (None, [], e1 ++ err_at srclen, true)
          end
        else (None, r4, e1 ++ err_at (tstart rp), true)
      | [] => (None, [], e1 ++ err_at srclen, true)
      end
    else (None, r3, e0 ++ err_at (tstart lp), true)
  | [] => (None, [], e0 ++ err_at srclen, true)
  end.

Lemma p_operator_S f (pipe : span) (name : token) (ts : list token) :
  p_operator srclen (S f) pipe name ts =
    let kw := tok_span name in
    let w := tvalue name in
    let n := S (length ts) in
    if str_eqb w w_count then (Some (OCount pipe kw), ts, [], true)
    else if str_eqb w w_where || str_eqb w w_filter then
      let '(x, r, e) := p_expr srclen f ts in
      (when_ok e (option_map (OWhere pipe kw) x), r, opaque e, true)
    else if str_eqb w w_sort || str_eqb w w_order then
      match ts with
      | b :: r =>
        if is_kind KBy b then
          let '(terms, r1, e) := p_sort_terms srclen n f r in
          (when_ok e (option_map (OSort pipe (Some (tstart name, tend b))) terms), r1, e, true)
        else (None, r, err_at (tstart b), true)
      | [] => (None, [], err_at srclen, true)
      end
    else if str_eqb w w_take || str_eqb w w_limit then
      let '(x, r, e) := p_row_count srclen f ts in
      (when_ok e (option_map (OTake pipe kw) x), r, opaque e, true)
    else if str_eqb w w_top then
      let '(x, r, e) := p_row_count srclen f ts in
      if negb (no_err e) then (None, r, opaque e, true)
      else
        match r with
        | b :: r1 =>
          if is_kind KBy b then
            let '(col, r2, e2) := p_sort_term srclen f r1 in
            (when_ok e2 (opt_map2 (fun x c => OTop pipe kw x (tok_span b) c) x col), r2, opaque e2, true)
          else (None, r, err_at (tstart b), true)
        | [] => (None, [], err_at srclen, true)
        end
    else if str_eqb w w_project then
      let '(cols, r, e) := p_project_cols srclen n f ts in
      (when_ok e (option_map (OProject pipe kw) cols), r, e, true)
    else if str_eqb w w_extend then
      let '(cols, r, e) := p_extend_cols srclen n f ts in
      (when_ok e (option_map (OExtend pipe kw) cols), r, e, true)
    else if str_eqb w w_summarize then
      let '(cols, r, e, fin, tc) := p_summarize_cols srclen n f false ts in
      if fin then (when_ok e (option_map (fun c => OSummarize pipe kw c None []) cols), r, e, true)
      else
        let ncols := match cols with Some c => length c | None => 1%nat end in
        let need_by := Nat.eqb ncols 0 || tc in
        match r with
        | b :: r1 =>
          if is_kind KBy b then
            let '(gs, r2, e2) := p_group_cols srclen n f r1 in
            (when_ok e2 (opt_map2 (fun c g => OSummarize pipe kw c (tok_span b) g) cols gs), r2, e2, true)
          else if need_by then (None, r, err_at (tstart b), true)
          else (option_map (fun c => OSummarize pipe kw c None []) cols, r, [], true)
        | [] =>
          if need_by then (None, [], err_at srclen, true)
          else (option_map (fun c => OSummarize pipe kw c None []) cols, [], [], true)
        end
    else if str_eqb w w_join then
      match ts with
      | [] => (None, [], err_at srclen, true)
      | t0 :: r0 =>
        if is_word w_kind t0 then
          match r0 with
          | a :: r1 =>
            if is_kind KAssign a then
              match r1 with
              | fl :: r2 =>
                if is_kind KIdentifier fl then
                  after_kind f pipe kw (tok_span t0) (tok_span a) (Some (mk_ident fl)) r2
                             (if is_join_type (tvalue fl) then [] else err_at (tstart fl))
                else (None, r2, err_at (tstart fl), true)
              | [] => (None, [], err_at srclen, true)
              end
            else (None, r1, err_at (tstart a), true)
          | [] => (None, [], err_at srclen, true)
          end
        else after_kind f pipe kw None None None ts []
      end
    else if str_eqb w w_as then
      let '(i, r, e) := p_ident srclen ts in
      (option_map (OAs pipe kw) i, r, opaque e, true)
    else if str_eqb w w_render then
      match p_ident srclen ts with
      | (None, r, _) => (None, r, err_at (tstart name), true)
      | (Some chart, r, _) =>
        match r with
        | wt :: r1 =>
          if is_word w_with wt then
            match r1 with
            | lp :: r2 =>
              if is_kind KLParen lp then
                let '(ps, r3, e) := p_render_props srclen n f r2 in
                (when_ok e (option_map (fun ps => ORender pipe kw chart (tok_span wt) (tok_span lp) (fst ps) (snd ps)) ps),
                 r3, e, true)
              else (None, r2, err_at (tstart lp), true)
            | [] => (None, [], err_at srclen, true)
            end
          else (Some (ORender pipe kw chart None None [] None), r, [], true)
        | [] => (Some (ORender pipe kw chart None None [] None), [], [], true)
        end
      end
    else (None, ts, err_at (tstart name), false).
Proof. reflexivity. Qed.

Lemma str_eqb_in1 w a : str_eqb w a = true -> In w [a].
Proof. intros H. apply str_eqb_eq in H. left. auto. Qed.
Lemma str_eqb_in2 w a b : str_eqb w a || str_eqb w b = true -> In w [a; b].
Proof. intros H. apply Bool.orb_true_iff in H as [H|H]; apply str_eqb_eq in H; cbn; auto. Qed.

Lemma ident_not_quoted t : is_kind KIdentifier t = true -> is_kind KQuotedIdentifier t = false.
Proof. intros H. apply is_kind_eq in H. unfold is_kind. rewrite H. reflexivity. Qed.

Lemma kw_mk ws n : tkind n = KIdentifier -> In (tvalue n) ws -> kw_tok ws (tok_span n) n.
Proof. intros H1 H2. split; [exact H1|split; [exact H2|reflexivity]]. Qed.

Lemma toks_sep_nonempty {A} (P : A -> list token -> Prop) l ts : toks_sep P l ts -> l <> [].
Proof. intros H. destruct H; discriminate. Qed.

(** An operator may report at its name, which [p_operators] has already taken off the list, so its
    outcome is stated for [name :: ts]. *)
Definition op_ok (pipe : span) (name : token) (ts : list token) (op : option operator) (rest : list token) : Prop :=
  forall o, op = Some o -> exists used, ts = used ++ rest /\
    (forall p, is_tok KPipe pipe p -> tkind name = KIdentifier -> toks_op o (p :: name :: used)) /\ gop o = true.

Definition OutT (f : nat) : Prop :=
  OutOK srclen (tree_of toks_tab (fun t => forallb gop (tops t))) Restores 6 f (p_tabular srclen f)
  /\ OutOK srclen (tree_of toks_ops (forallb gop)) NeverNf 6 f (p_operators srclen f)
  /\ (forall pipe name ts0 ts op rest e known, within ts0 (name :: ts) -> p_operator srclen f pipe name ts = (op, rest, e, known) ->
        Out srclen NeverNf (4 * length ts + 6 <= f) ts0 (name :: ts) rest e (op_ok pipe name ts op rest)).

Lemma step_op_out f : OutOK srclen (tree_of toks_tab (fun t => forallb gop (tops t))) Restores 6 f (p_tabular srclen f) ->
  forall pipe name ts0 ts op rest e known, within ts0 (name :: ts) -> p_operator srclen (S f) pipe name ts = (op, rest, e, known) ->
  Out srclen NeverNf (4 * length ts + 6 <= S f) ts0 (name :: ts) rest e (op_ok pipe name ts op rest).
Proof.
  intros Htab pipe name ts0 ts op rest e known Hw. rewrite p_operator_S. cbv zeta.
  (* every operator ends the same way: keyword in [ws], then the tokens [body] *)
  assert (Hfin : forall ws body o rest', In (tvalue name) ws -> ts = body ++ rest' -> gop o = true ->
            (forall p, is_tok KPipe pipe p -> kw_tok ws (tok_span name) name -> toks_op o (p :: name :: body)) ->
            exists used, ts = used ++ rest' /\ (forall p, is_tok KPipe pipe p -> tkind name = KIdentifier -> toks_op o (p :: name :: used)) /\ gop o = true).
  { intros ws body o rest' Hws Hb Hg Hop. exists body. split; [exact Hb|]. split; [|exact Hg]. intros p Hp Hn. apply Hop; [exact Hp|apply kw_mk; assumption]. }
  destruct (str_eqb (tvalue name) w_count) eqn:E1.
  { leaf. intros _ o [= <-]. apply (Hfin _ [] _ _ (str_eqb_in1 _ _ E1) eq_refl); [reflexivity|]. intros p Hp Hk. apply to_count; assumption. }
  destruct (str_eqb (tvalue name) w_where || str_eqb (tvalue name) w_filter) eqn:E2.
  { destruct (p_expr srclen f ts) as [[x r] e0] eqn:Ee. sub (p_expr_out srclen f) Ee. leaf.
    intros He o Ho. apply opaque_nil in He. subst e0. cbn [when_ok no_err] in Ho. apply option_map_some in Ho as (x0 & -> & ->).
    destruct (Ee eq_refl x0 eq_refl) as (u & Hu & Hx & Hg & _).
    apply (Hfin _ u _ _ (str_eqb_in2 _ _ _ E2) Hu); [exact Hg|]. intros p Hp Hk. apply to_where; assumption. }
  destruct (str_eqb (tvalue name) w_sort || str_eqb (tvalue name) w_order) eqn:E3.
  { destruct ts as [|b r]; [leaf|]. destruct (is_kind KBy b) eqn:Eb; [|leaf].
    destruct (p_sort_terms srclen _ f r) as [[terms r1] e0] eqn:Es. sub (p_sort_terms_out f) Es. leaf.
    intros -> o Ho. cbn [when_ok no_err] in Ho. apply option_map_some in Ho as (l & -> & ->).
    destruct (Es eq_refl l eq_refl) as (u & -> & Hu & Hg).
    apply (Hfin _ (b :: u) _ _ (str_eqb_in2 _ _ _ E3) eq_refl); [exact Hg|]. intros p Hp Hk. apply to_sort; [exact Hp|exact Hk|apply is_kind_eq; exact Eb|exact Hu]. }
  destruct (str_eqb (tvalue name) w_take || str_eqb (tvalue name) w_limit) eqn:E4.
  { destruct (p_row_count srclen f ts) as [[x r] e0] eqn:Ee. sub (p_row_count_out f) Ee. leaf.
    intros He o Ho. apply opaque_nil in He. subst e0. cbn [when_ok no_err] in Ho. apply option_map_some in Ho as (x0 & -> & ->).
    destruct (Ee eq_refl x0 eq_refl) as (u & Hu & Hx & Hg).
    apply (Hfin _ u _ _ (str_eqb_in2 _ _ _ E4) Hu); [exact Hg|]. intros p Hp Hk. apply to_take; assumption. }
  destruct (str_eqb (tvalue name) w_top) eqn:E5.
  { destruct (p_row_count srclen f ts) as [[x r] e0] eqn:Ee. sub (p_row_count_out f) Ee.
    destruct (negb (no_err e0)) eqn:Ene; [leaf|]. apply no_err_negb in Ene. subst e0.
    destruct r as [|b r1]; [leaf|]. destruct (is_kind KBy b) eqn:Eb; [|leaf].
    destruct (p_sort_term srclen f r1) as [[col r2] e2] eqn:Es. sub (p_sort_term_out f) Es. leaf.
    intros He o Ho. apply opaque_nil in He. subst e2. cbn [when_ok no_err] in Ho. apply opt_map2_some in Ho as (x0 & c0 & -> & -> & ->).
    destruct (Ee eq_refl x0 eq_refl) as (u & Hu & Hx & Hg). destruct (Es eq_refl c0 eq_refl) as (u2 & -> & Hu2 & Hg2).
    apply (Hfin _ (u ++ b :: u2) _ _ (str_eqb_in1 _ _ E5) ltac:(rewrite Hu, <- app_assoc; reflexivity)); [cbn [gop]; rewrite Hg, Hg2; reflexivity|].
    intros p Hp Hk. apply to_top; [exact Hp|exact Hk|exact Hx|apply is_kind_tok; exact Eb|exact Hu2]. }
  destruct (str_eqb (tvalue name) w_project) eqn:E6.
  { destruct (p_project_cols srclen _ f ts) as [[cols r] e0] eqn:Ec. sub (p_project_cols_out f) Ec. leaf.
    intros -> o Ho. cbn [when_ok no_err] in Ho. apply option_map_some in Ho as (l & -> & ->).
    destruct (Ec eq_refl l eq_refl) as (u & Hu & Hl & Hg).
    apply (Hfin _ u _ _ (str_eqb_in1 _ _ E6) Hu); [exact Hg|]. intros p Hp Hk. apply to_project; assumption. }
  destruct (str_eqb (tvalue name) w_extend) eqn:E7.
  { destruct (p_extend_cols srclen _ f ts) as [[cols r] e0] eqn:Ec. sub (p_extend_cols_out f) Ec. leaf.
    intros -> o Ho. cbn [when_ok no_err] in Ho. apply option_map_some in Ho as (l & -> & ->).
    destruct (Ec eq_refl l eq_refl) as (u & Hu & Hl & Hg).
    apply (Hfin _ u _ _ (str_eqb_in1 _ _ E7) Hu); [exact Hg|]. intros p Hp Hk. apply to_extend; assumption. }
  destruct (str_eqb (tvalue name) w_summarize) eqn:E8.
  { destruct (p_summarize_cols srclen _ f false ts) as [[[[cols r] e0] fin] tc] eqn:Ec. pose proof Ec as Ec0. sub (p_summarize_cols_out f) Ec.
    assert (Hsumm : forall body rest' c bsp gs, ts = body ++ rest' -> toks_summ c bsp gs body -> forallb gext_col c = true -> forallb gext_col gs = true ->
       exists used, ts = used ++ rest' /\ (forall p, is_tok KPipe pipe p -> tkind name = KIdentifier ->
         toks_op (OSummarize pipe (tok_span name) c bsp gs) (p :: name :: used)) /\ gop (OSummarize pipe (tok_span name) c bsp gs) = true).
    { intros body rest' c bsp gs Hb Hs Hgc Hgg. apply (Hfin _ body _ _ (str_eqb_in1 _ _ E8) Hb); [cbn [gop]; rewrite Hgc, Hgg; reflexivity|].
      intros p Hp Hk. apply to_summarize; assumption. }
    destruct fin.
    { leaf. intros -> o Ho. cbn [when_ok no_err] in Ho. apply option_map_some in Ho as (l & -> & ->).
      destruct (Ec eq_refl l eq_refl) as [Hgl [(_ & _ & Hf & _)|(u & Hl & [(Hu & _)|(c1 & _ & _ & _ & Hf)])]]; try discriminate.
      apply (Hsumm u _ l None [] Hu); [constructor; exact Hl|exact Hgl|reflexivity]. }
    pose proof (p_summarize_cols_notfin _ _ _ _ _ _ _ _ Ec0) as ->. specialize (Ec eq_refl). clear Ec0.
    (* no `by`: there are columns, and the last thing read was not a comma *)
    assert (Hplain : forall l, cols = Some l -> (Nat.eqb (length l) 0 || tc) = false ->
       exists used, ts = used ++ r /\ (forall p, is_tok KPipe pipe p -> tkind name = KIdentifier ->
         toks_op (OSummarize pipe (tok_span name) l None []) (p :: name :: used)) /\ gop (OSummarize pipe (tok_span name) l None []) = true).
    { intros l Hl Hnb. apply Bool.orb_false_iff in Hnb as [Hlen ->].
      destruct (Ec l Hl) as [Hgl [(-> & _)|(u & Hlu & [(Hu & _)|(c1 & _ & _ & Htc & _)])]]; [discriminate Hlen| |discriminate Htc].
      apply (Hsumm u _ l None [] Hu); [constructor; exact Hlu|exact Hgl|reflexivity]. }
    (* `by` after no column, after the columns, or after their trailing comma *)
    assert (Hby : forall b r1 l gs r2 g0, cols = Some l -> r = b :: r1 -> is_kind KBy b = true ->
       reads (tree_of (toks_sep toks_ext_col) (forallb gext_col)) r1 gs r2 -> gs = Some g0 ->
       exists used, ts = used ++ r2 /\ (forall p, is_tok KPipe pipe p -> tkind name = KIdentifier ->
         toks_op (OSummarize pipe (tok_span name) l (tok_span b) g0) (p :: name :: used)) /\ gop (OSummarize pipe (tok_span name) l (tok_span b) g0) = true).
    { intros b r1 l gs r2 g0 Hl Hr Eb Hg Hgs. destruct (Hg g0 Hgs) as (ug & -> & Hug & Hgg). pose proof (is_kind_tok _ _ Eb) as Hb.
      destruct (Ec l Hl) as [Hgl [(-> & Hts & _)|(u & Hlu & [(Hts & _)|(c1 & Hts & Hc1 & _)])]]; rewrite Hr in Hts.
      - apply (Hsumm (b :: ug) _ [] (tok_span b) g0 (eq_sym Hts)); [apply tsm_by_only; assumption|exact Hgl|exact Hgg].
      - apply (Hsumm (u ++ b :: ug) _ l (tok_span b) g0 ltac:(rewrite Hts, <- app_assoc; reflexivity)); [apply tsm_by; assumption|exact Hgl|exact Hgg].
      - apply (Hsumm ((u ++ [c1]) ++ b :: ug) _ l (tok_span b) g0 ltac:(rewrite Hts, <- !app_assoc; reflexivity)); [|exact Hgl|exact Hgg].
        rewrite <- app_assoc. apply tsm_comma_by; assumption. }
    destruct r as [|b r1].
    { destruct (Nat.eqb _ 0 || tc) eqn:Enb; leaf. intros _ o Ho. apply option_map_some in Ho as (l & -> & ->). exact (Hplain l eq_refl Enb). }
    destruct (is_kind KBy b) eqn:Eb.
    { destruct (p_group_cols srclen _ f r1) as [[gs r2] e2] eqn:Eg. sub (p_group_cols_out f) Eg. leaf.
      intros -> o Ho. cbn [when_ok no_err] in Ho. apply opt_map2_some in Ho as (l & g0 & -> & -> & ->).
      exact (Hby b r1 l _ _ g0 eq_refl eq_refl Eb (Eg eq_refl) eq_refl). }
    destruct (Nat.eqb _ 0 || tc) eqn:Enb; leaf. intros _ o Ho. apply option_map_some in Ho as (l & -> & ->). exact (Hplain l eq_refl Enb). }
  destruct (str_eqb (tvalue name) w_join) eqn:E9.
  { (* after the optional `kind = flavor` [tk], which may have left the error [e0] *)
    assert (Hjoin : forall ksp kasp flavor tk r2 e0, within ts0 r2 -> length r2 <= length ts ->
              Forall (pos_from srclen ts0) e0 -> Forall no_fuel e0 -> Forall no_nf e0 ->
              ts = tk ++ r2 -> (e0 = [] -> toks_join_kind ksp kasp flavor tk) ->
              after_kind f pipe (tok_span name) ksp kasp flavor r2 e0 = (op, rest, e, known) ->
              Out srclen NeverNf (4 * length ts + 6 <= S f) ts0 (name :: ts) rest e (op_ok pipe name ts op rest)).
    { intros ksp kasp flavor tk r2 e0 Hw2 Hlen P0 F0 N0 Hts Hk. unfold after_kind.
      destruct r2 as [|lp r3]; [leaf|]. destruct (is_kind KLParen lp) eqn:Elp; [|leaf].
      splt KRParen r3 Esp.
      destruct (p_tabular srclen f l) as [[rtab subrest] er] eqn:Et. cbv zeta. sub Htab Et.
      destruct l0 as [|rp r4]; [leaf|]. destruct (is_kind KRParen rp) eqn:Erp; [|leaf].
      destruct r4 as [|on r5]; [leaf|]. destruct (is_word w_on on) eqn:Eon; [|leaf].
      destruct (p_expr_list srclen f r5) as [[conds r6] ec] eqn:El. sub (p_expr_list_out srclen f) El. leaf.
      intros He o Ho. apply when_ok_some in Ho as (_ & Ho). apply opt_map2_some in Ho as (rt & cs & Hrt & -> & ->).
      apply app_eq_nil in He as [He1 Hec]. apply opaque_nil in Hec. subst ec. apply app_eq_nil in He1 as [-> He1].
      destruct (closes _ _ _ _ _ _ _ _ _ _ Esp Erp Et Hrt He1) as (-> & ((tsrc0 & tro & -> & Hsrc & Hops) & Hgo) & Hrp).
      destruct (El eq_refl cs eq_refl) as (tc & -> & Hl & Hne & Hgc).
      pose proof (is_kind_tok _ _ Elp) as Hlp. pose proof (is_word_kw _ _ Eon) as Hon. specialize (Hk eq_refl).
      apply (Hfin _ (tk ++ lp :: (tsrc0 :: tro) ++ rp :: on :: tc) _ _ (str_eqb_in1 _ _ E9)); [|cbn [gop]; rewrite Hgo, Hgc; reflexivity|].
      { rewrite <- app_assoc. f_equal. cbn [app]. f_equal. f_equal. rewrite <- app_assoc. reflexivity. }
      intros p Hp Hkw. apply to_join; assumption. }
    destruct ts as [|t0 r0]; [leaf|].
    destruct (is_word w_kind t0) eqn:Ek.
    - destruct r0 as [|a r1]; [leaf|]. destruct (is_kind KAssign a) eqn:Ea; [|leaf].
      destruct r1 as [|fl r2]; [leaf|]. destruct (is_kind KIdentifier fl) eqn:Efl; [|leaf].
      apply (Hjoin _ _ _ [t0; a; fl]); [within_heads; assumption|cbn [length]; lia|..|reflexivity|].
      1-3: within_heads; destruct (is_join_type (tvalue fl)); auto with errs.
      intros He0. destruct (is_join_type (tvalue fl)) eqn:Ejt; [|discriminate].
      apply tjk_some; [apply is_word_kw; exact Ek|apply is_kind_tok; exact Ea| | |exact Ejt].
      + apply mk_ident_tok. rewrite Efl. reflexivity.
      + cbn [mk_ident iquoted]. apply ident_not_quoted. exact Efl.
    - apply (Hjoin None None None [] (t0 :: r0) []); [within_heads; auto with errs|apply le_n|constructor|constructor|constructor|reflexivity|intros _; constructor]. }
  destruct (str_eqb (tvalue name) w_as) eqn:E10.
  { destruct (p_ident srclen ts) as [[i r] e0] eqn:Ei. pose proof Ei as Hi0. sub (p_ident_out srclen) Ei. leaf.
    intros _ o Ho. apply option_map_some in Ho as (i0 & -> & ->). apply p_ident_sound in Hi0 as (ti & -> & Hi & _).
    apply (Hfin _ [ti] _ _ (str_eqb_in1 _ _ E10) eq_refl); [reflexivity|]. intros p Hp Hk. apply to_as; assumption. }
  destruct (str_eqb (tvalue name) w_render) eqn:E11; [|leaf].
  destruct (p_ident srclen ts) as [[[chart|] r] e0] eqn:Ei; [|sub (p_ident_out srclen) Ei; leaf].
  pose proof (p_ident_sound _ _ _ _ _ Ei) as (tch & -> & Hch & _). sub (p_ident_out srclen) Ei.
  assert (Hplain : exists used, tch :: r = used ++ r /\ (forall p, is_tok KPipe pipe p -> tkind name = KIdentifier ->
            toks_op (ORender pipe (tok_span name) chart None None [] None) (p :: name :: used)) /\ gop (ORender pipe (tok_span name) chart None None [] None) = true).
  { apply (Hfin _ [tch] _ _ (str_eqb_in1 _ _ E11) eq_refl); [reflexivity|]. intros p Hp Hk. apply to_render; [exact Hp|exact Hk|exact Hch|constructor]. }
  destruct r as [|wt r1]; [leaf; intros _ o [= <-]; exact Hplain|]. destruct (is_word w_with wt) eqn:Ew; [|leaf; intros _ o [= <-]; exact Hplain].
  destruct r1 as [|lp r2]; [leaf|]. destruct (is_kind KLParen lp) eqn:Elp; [|leaf].
  destruct (p_render_props srclen _ f r2) as [[ps r3] e1] eqn:Ep. sub (p_render_props_out f) Ep. leaf.
  intros -> o Ho. cbn [when_ok no_err] in Ho. apply option_map_some in Ho as ([props rsp] & -> & ->). cbn [fst snd].
  destruct (Ep eq_refl _ eq_refl) as (u' & -> & u & tr & -> & Hu & Hr & Hg). cbn [fst snd] in Hu, Hr, Hg.
  apply (Hfin _ (tch :: wt :: lp :: u ++ [tr]) _ _ (str_eqb_in1 _ _ E11) eq_refl); [exact Hg|].
  intros p Hp Hk. apply to_render; [exact Hp|exact Hk|exact Hch|].
  apply trw_some; [apply is_word_kw; exact Ew|apply is_kind_tok; exact Elp|exact Hu|exact Hr].
Qed.

Lemma outT_all f : OutT f.
Proof.
  induction f as [|f (Htab & Hops & Hop)].
  { unfold OutT, OutOK. cbn [p_tabular p_operators p_operator]. repeat apply conj; intros; match goal with E : _ = _ |- _ => revert E end; leaf. }
  unfold OutT, OutOK in *. repeat apply conj.
  - intros ts0 ts t rest e Hw. rewrite p_tabular_S.
    destruct (p_ident srclen ts) as [[[name|] r] e0] eqn:Ei; [|sub (p_ident_out srclen) Ei; leaf].
    pose proof (p_ident_sound _ _ _ _ _ Ei) as (ti & -> & Hi & _). sub (p_ident_out srclen) Ei.
    destruct (p_operators srclen f r) as [[ops rest0] e1] eqn:Eo. sub Hops Eo. leaf.
    intros -> t' Hx. cbn [when_ok no_err] in Hx. apply option_map_some in Hx as (l & -> & ->).
    destruct (Eo eq_refl l eq_refl) as (u & -> & Hu & Hg). exists (ti :: u). split; [reflexivity|]. split; [|exact Hg].
    exists ti, u. split; [reflexivity|split; [exact Hi|exact Hu]].
  - intros ts0 ts l rest e Hw. rewrite p_operators_S.
    assert (Hnone : forall r, reads (tree_of toks_ops (forallb gop)) r (Some []) r).
    { intros r l' [= <-]. exists []. split; [reflexivity|]. split; [constructor|reflexivity]. }
    destruct ts as [|pipe r]; [leaf; intros _; apply Hnone|]. destruct (is_kind KPipe pipe) eqn:Epipe; [|leaf; intros _; apply Hnone].
    splt KPipe r Esp. pose proof (split_partition KPipe r) as Hr. rewrite Esp in Hr. cbn [fst snd] in Hr.
    destruct (p_operators srclen f l1) as [[ops rest'] e2] eqn:Er. sub Hops Er.
    destruct l0 as [|name sr]; [leaf|].
    destruct (negb (is_kind KIdentifier name)) eqn:Eid; [leaf|]. apply Bool.negb_false_iff in Eid.
    destruct (p_operator srclen f (tok_span pipe) name sr) as [[[op subrest] eo] known] eqn:Eo. sub Hop Eo.
    destruct known; [|leaf; intros He l' Hx; apply app_eq_nil in He as [-> ->]; discriminate Hx]. leaf.
    intros He l' Hx. apply app_eq_nil in He as [He1 ->]. apply app_eq_nil in He1 as [-> Hsr]. apply end_split_nil in Hsr. subst subrest.
    cbn [app when_ok no_err] in Hx. apply opt_map2_some in Hx as (o & os & -> & -> & ->).
    destruct (Eo eq_refl o eq_refl) as (u & Hsr & Ho & Hgo). rewrite app_nil_r in Hsr. subst sr.
    destruct (Er eq_refl os eq_refl) as (u2 & -> & Hl & Hgl).
    exists ((pipe :: name :: u) ++ u2). split; [cbn [app]; rewrite <- app_assoc; reflexivity|].
    split; [|cbn [forallb]; rewrite Hgo, Hgl; reflexivity].
    constructor; [|exact Hl]. apply Ho; [apply is_kind_tok; exact Epipe|apply is_kind_eq; exact Eid].
  - apply step_op_out. exact Htab.
Qed.

Theorem p_tabular_out f : OutOK srclen (tree_of toks_tab (fun t => forallb gop (tops t))) Restores 6 f (p_tabular srclen f).
Proof. exact (proj1 (outT_all f)). Qed.

Lemma p_let_out f : OutOK srclen (tree_of toks_stmt gstmt) Restores 4 f (p_let srclen f).
Proof.
  intros ts0 ts s rest e Hw. unfold p_let. destruct ts as [|kw r]; [leaf|]. destruct (is_word w_let kw) eqn:Ek; [|leaf].
  destruct (p_ident srclen r) as [[[name|] r1] e0] eqn:Ei; [|sub (p_ident_out srclen) Ei; leaf].
  pose proof (p_ident_sound _ _ _ _ _ Ei) as (ti & -> & Hi & _). sub (p_ident_out srclen) Ei.
  destruct r1 as [|a r2]; [leaf|]. destruct (is_kind KAssign a) eqn:Ea; [|leaf].
  destruct (p_expr srclen f r2) as [[x r3] e1] eqn:Ee. sub (p_expr_out srclen f) Ee. leaf.
  intros He s' Hx. apply opaque_nil in He. subst e1. cbn [when_ok no_err] in Hx. apply option_map_some in Hx as (x0 & -> & ->).
  destruct (Ee eq_refl x0 eq_refl) as (u & -> & Hu & Hg & _).
  exists (kw :: ti :: a :: u). split; [reflexivity|]. split; [|exact Hg].
  constructor; [apply is_word_kw; exact Ek|exact Hi|apply is_kind_tok; exact Ea|exact Hu].
Qed.

Lemma p_let_nf f ts s rest e : p_let srclen f ts = (s, rest, e) -> is_nf e = true -> rest = ts.
Proof. intros H. exact (out_nf _ _ _ _ _ _ _ _ (p_let_out f _ _ _ _ _ (within_refl _) H)). Qed.

Lemma p_let_nf_word f ts s rest e : p_let srclen f ts = (s, rest, e) -> is_nf e = true ->
  match ts with t :: _ => is_word w_let t = false | [] => True end.
Proof.
  unfold p_let. destruct ts as [|kw r]; [trivial|]. destruct (is_word w_let kw); [|reflexivity].
  destruct (p_ident srclen r) as [[[name|] r1] e0]; [|intros [= _ _ <-]; rewrite is_nf_opaque; discriminate].
  destruct r1 as [|a r2]; [intros [= _ _ <-]; discriminate|]. destruct (is_kind KAssign a); [|intros [= _ _ <-]; discriminate].
  destruct (p_expr srclen f r2) as [[x r3] e1]. intros [= _ _ <-]. rewrite is_nf_opaque. discriminate.
Qed.

Lemma p_statement_out f : OutOK srclen (tree_of toks_stmt gstmt) Restores 6 f (p_statement srclen f).
Proof.
  intros ts0 ts s rest e Hw. unfold p_statement. destruct (p_let srclen f ts) as [[s0 r] e0] eqn:El.
  pose proof (p_let_nf_word _ _ _ _ _ El) as Hword. sub (p_let_out f) El.
  destruct (negb (is_nf e0)) eqn:Enf; [leaf; exact El|].
  apply Bool.negb_false_iff in Enf. specialize (Hword Enf).
  destruct (p_tabular srclen f ts) as [[t r0] e1] eqn:Et. sub (p_tabular_out f) Et. leaf.
  intros -> s' Hx. apply option_map_some in Hx as (t0 & -> & ->).
  destruct (Et eq_refl t0 eq_refl) as (u & -> & (tsrc0 & tro & -> & Hs & Hops) & Hg).
  exists (tsrc0 :: tro). split; [reflexivity|]. split; [constructor; exists tsrc0, tro; auto|].
  (* the source name is the first token, which is not the word let *)
  cbn [gstmt]. rewrite Hg, Bool.andb_true_r.
  cbn [app] in Hword. unfold is_let_word. destruct Hs as (Hk & Hv & _). unfold is_word, is_kind in Hword. rewrite Hk, Hv in Hword.
  destruct (iquoted (tsrc t0)); [reflexivity|]. rewrite (proj2 (kind_eqb_eq _ _) eq_refl) in Hword.
  cbn [andb negb] in *. rewrite Hword. reflexivity.
Qed.

Lemma p_statement_nf f ts s rest e : p_statement srclen f ts = (s, rest, e) -> is_nf e = true -> rest = ts.
Proof. intros H. exact (out_nf _ _ _ _ _ _ _ _ (p_statement_out f _ _ _ _ _ (within_refl _) H)). Qed.

(** The statement loop only adds to the errors [acc] it is given: a [Q] kept by [opaque] that holds of
    [acc] and of every error located in the input holds of the errors handed back. *)
Lemma p_statements_out f : forall n ts acc l e ts0, p_statements srclen n f ts acc = (l, e) -> within ts0 ts ->
  (forall Q, keeps Q -> (forall x, pos_from srclen ts0 x -> Q x) -> Forall Q acc -> Forall Q e)
  /\ (length ts < n -> 4 * length ts + 6 <= f -> Forall no_fuel acc -> Forall no_fuel e).
Proof.
  induction n as [|n IH]; intros ts acc l e ts0; cbn [p_statements].
  { intros [= <- <-] _. split; [auto with errs|intros; lia]. }
  intros E Hw. revert E.
  destruct (split_semi_parts ts0 ts Hw) as (Hs & Hr & Hlen). destruct (split_semi ts) as [sub rest]. cbn [fst snd] in *.
  destruct (p_statement srclen f sub) as [[s subrest] es] eqn:Es.
  apply (p_statement_out f ts0) in Es; [|exact Hs]. destruct Es as [Hsr _ Pe Fe _ _].
  match goal with |- (let '(here, acc') := ?X in _) = _ -> _ =>
    assert (Hacc' : (forall Q, keeps Q -> (forall x, pos_from srclen ts0 x -> Q x) -> Forall Q acc -> Forall Q (snd X))
                    /\ (4 * length sub + 6 <= f -> Forall no_fuel acc -> Forall no_fuel (snd X))) end.
  { within_heads. split.
    - intros Q HQ1 HQ2 Hacc. assert (Hpos : forall e', Forall (pos_from srclen ts0) e' -> Forall Q e') by (intros e'; apply Forall_impl; exact HQ2).
      destruct (is_nf es); [destruct subrest|]; cbn [snd]; within_heads; auto 10 with errs.
    - intros. destruct (is_nf es); [destruct subrest|]; cbn [snd]; auto 10 with errs. }
  match goal with |- (let '(here, acc') := ?X in _) = _ -> _ => destruct X as [here acc'] end. cbn [snd] in Hacc'.
  destruct Hacc' as [Hp Hf]. destruct rest as [|semi rest'].
  { intros [= <- <-]. split; [exact Hp|intros; apply Hf; [lia|assumption]]. }
  destruct (p_statements srclen n f rest' acc') as [tl acc''] eqn:Er. intros [= <- <-].
  destruct (IH _ _ _ _ ts0 Er ltac:(within_heads; assumption)) as [Hp' Hf']. cbn [length] in *.
  split; [intros Q HQ1 HQ2 Hacc; apply (Hp' Q HQ1 HQ2), (Hp Q HQ1 HQ2), Hacc|].
  intros. apply Hf'; [lia|lia|apply Hf; [lia|assumption]].
Qed.

Lemma split_semi_snd ts : match snd (split_semi ts) with [] => True | semi :: _ => tkind semi = KSemi end.
Proof. pose proof (split_semi_rest ts) as H. destruct (snd (split_semi ts)); [exact I|apply is_kind_eq, H]. Qed.

Lemma p_statements_reads f : forall n ts ss, p_statements srclen n f ts [] = (Some ss, []) -> toks_prog ss ts /\ gprog ss = true.
Proof.
  induction n as [|n IH]; intros ts ss; cbn [p_statements]; [discriminate|].
  destruct (split_semi ts) as [sub rest] eqn:Esp.
  pose proof (split_semi_app ts) as Hp. pose proof (split_semi_snd ts) as Hsemi. rewrite Esp in Hp, Hsemi. cbn [fst snd] in Hp, Hsemi.
  destruct (p_statement srclen f sub) as [[s subrest] e] eqn:Es.
  assert (Hstep : forall here acc', (if is_nf e then match subrest with t :: _ => (Some [], e ++ err_at (tstart t)) | [] => (Some [], []) end
                                     else (option_map (fun s => [s]) s, [] ++ opaque e ++ end_split subrest)) = (here, acc') -> acc' = [] ->
            (here = Some [] /\ sub = []) \/ (exists s0, here = Some [s0] /\ tree_of toks_stmt gstmt s0 sub) \/ here = None).
  { intros here acc'. destruct (is_nf e) eqn:Enf.
    - pose proof (p_statement_nf _ _ _ _ _ Es Enf) as ->.
      destruct sub as [|t0 sr]; [intros [= <- <-] _; left; auto|].
      intros [= <- <-] He. apply app_eq_nil in He as [_ He]. discriminate.
    - intros [= <- <-] He. cbn [app] in He. apply app_eq_nil in He as [He1 He2]. apply opaque_nil in He1. apply end_split_nil in He2. subst e subrest.
      destruct s as [s0|]; [|right; right; reflexivity]. right. left. exists s0. split; [reflexivity|].
      exact (reads_all _ _ _ _ (ok_reads _ _ _ _ _ _ (p_statement_out f)) Es). }
  match goal with |- (let '(here, acc') := ?X in _) = _ -> _ => destruct X as [here acc'] eqn:Eh end.
  destruct rest as [|semi rest'].
  - intros [= -> ->]. destruct (Hstep _ _ Eh eq_refl) as [([= ->] & ->)|[(s0 & [= ->] & Hs & Hg)|Hn]]; [| |discriminate].
    + subst ts. split; [constructor|reflexivity].
    + subst ts. rewrite app_nil_r. split; [apply tp_last; exact Hs|]. unfold gprog. cbn [forallb]. rewrite Hg. reflexivity.
  - destruct (p_statements srclen n f rest' acc') as [tl acc''] eqn:Er. intros [= Hx ->].
    assert (acc' = []) as ->.
    { destruct acc' as [|a0 acc0]; [reflexivity|]. exfalso.
      pose proof (p_statements_acc srclen n f rest' (a0 :: acc0) ltac:(discriminate)) as Hacc. rewrite Er in Hacc. apply Hacc. reflexivity. }
    apply opt_map2_some in Hx as (h & tl0 & -> & -> & ->).
    destruct (IH _ _ Er) as [IHt IHg].
    destruct (Hstep _ _ Eh eq_refl) as [([= ->] & ->)|[(s0 & [= ->] & Hs & Hg)|Hn]]; [| |discriminate].
    + subst ts. cbn [app]. split; [apply tp_empty; [exact Hsemi|exact IHt]|exact IHg].
    + subst ts. cbn [app]. split; [apply tp_cons; [exact Hs|exact Hsemi|exact IHt]|]. unfold gprog in *. cbn [forallb]. rewrite Hg. exact IHg.
Qed.

End Stmts.

Theorem parse_tokens_reads srclen ts ss : parse_tokens srclen ts = ParseOk ss -> toks_prog ss ts /\ gprog ss = true.
Proof.
  unfold parse_tokens. destruct (p_statements srclen _ _ ts []) as [l e] eqn:Ep.
  destruct (existsb efuel e); [discriminate|]. destruct (no_err e) eqn:En; [|discriminate].
  apply no_err_true in En. subst e. destruct l as [l|]; [|discriminate]. intros [= <-].
  eapply p_statements_reads. exact Ep.
Qed.

(** C08: if [parse] succeeds, the tokens of the source are exactly the program's token sequence. *)
Theorem parse_sound s ss : parse s = ParseOk ss -> toks_prog ss (scan s).
Proof. intros H. exact (proj1 (parse_tokens_reads _ _ _ H)). Qed.
