(** * A printed SELECT re-reads as the subquery it was printed from, every expression as its
    intended tree, and so does the whole statement with its WITH clauses.  Continues ReadBack.v;
    the text-level halves of properties C02, C03 and C05 (Props/C02.v, C03.v, C05.v) rest on
    [write_subq_reads] and [statement_reads]. *)
From PQL Require Import Spec.SqlRead Spec.Expected Proofs.ExprInd Proofs.ReadBack.
From Coq Require Import Lia String.
Local Open Scope list_scope.
Local Open Scope nat_scope.
Local Notation length := List.length (only parsing).

Definition kw (w : str) : stok := SWord w.
Definition star_t := SPunct p_star.
Definition semi_t := SPunct p_semi.
Definition as_t := kw k_AS.

Lemma stop_kw w r : stop_tok (SWord w) = true -> stop (SWord w :: r). Proof. intros H. exact H. Qed.

Lemma rx_read ts t rest : Fx ts t -> stop rest -> Conv (fun fx => rx fx (ts ++ rest)) (t, rest).
Proof. intros [_ H] Hs. exact (H rest Hs). Qed.

Lemma Fx_ne ts t : Fx ts t -> ts <> [].
Proof. intros [(t0 & r0 & -> & _) _]. discriminate. Qed.

Definition not_comma (rest : list stok) : Prop := match rest with [] => True | t :: _ => is_p p_comma t = false end.

(** The four list readers of a statement end every item the same way: a comma and the rest of
    the list, or the end of the list ([after]). *)
Section CommaList.
Context {X : Type} (rd : nat -> nat -> list stok -> option (list X * list stok)).
Context (item : X -> list stok -> Prop) (ok : list stok -> Prop).

Definition after (fx n : nat) (x : X) (rest : list stok) : option (list X * list stok) :=
  match rest with
  | t :: r => if is_p p_comma t then match rd fx n r with Some (xs, r') => Some (x :: xs, r') | None => None end else Some ([x], rest)
  | [] => Some ([x], [])
  end.

Hypothesis ok_comma : forall r, ok (comma_t :: r).
Hypothesis item_ne : forall x it, item x it -> it <> [].
Hypothesis item_step : forall x it n rest r, item x it -> ok rest ->
  Conv (fun fx => after fx n x rest) r -> Conv (fun fx => rd fx (S n) (it ++ rest)) r.

Lemma comma_list_upto : forall xs tls, Forall2 item xs tls -> xs <> [] -> forall rest n, ok rest -> not_comma rest -> length xs <= n ->
  Conv (fun fx => rd fx n (join_toks tls ++ rest)) (xs, rest).
Proof.
  induction 1 as [|x it xs tls Hx Hr IH]; intros Hne rest n Hok Hnc Hn; [congruence|].
  destruct n as [|n]; [inversion Hn|]. destruct Hr as [|x2 it2 xs tls _ _].
  - apply (item_step x it); [exact Hx|exact Hok|]. destruct rest as [|t r]; [apply conv_ret|]. cbn [after]. rewrite Hnc. apply conv_ret.
  - rewrite join_toks_cons, <- app_assoc. apply (item_step x it); [exact Hx|apply ok_comma|].
    cbn [after app]. change (is_p p_comma comma_t) with true. cbn iota.
    eapply conv_bind; [apply IH; [discriminate|exact Hok|exact Hnc|cbn [length] in *; lia]|]. apply conv_ret.
Qed.

Lemma join_len xs tls : Forall2 item xs tls -> length xs <= length (join_toks tls).
Proof.
  induction 1 as [|x it xs tls Hx Hr IH]; [apply le_n|]. apply item_ne in Hx.
  destruct Hr; [|rewrite join_toks_cons, app_length]; (destruct it; [congruence|]); cbn [length join_toks] in *; lia.
Qed.

(** the count the statement reader starts from is the number of tokens left *)
Lemma comma_list_read xs tls rest : Forall2 item xs tls -> xs <> [] -> ok rest -> not_comma rest ->
  Conv (fun fx => rd fx (S (length (join_toks tls ++ rest))) (join_toks tls ++ rest)) (xs, rest).
Proof.
  intros H Hne Hok Hnc. apply (comma_list_upto xs tls H Hne rest _ Hok Hnc).
  rewrite app_length. pose proof (join_len xs tls H). lia.
Qed.
End CommaList.

Inductive col_toks : rcol -> list stok -> Prop :=
| ct_star : col_toks RStar [star_t]
| ct_expr e al tx a : Fx tx e -> is_kw k_AS a = true -> stop_tok a = true -> col_toks (RExpr e (Some al)) (tx ++ [a; SQuoted al]).

Lemma read_cols_ok cols tls rest : Forall2 col_toks cols tls -> cols <> [] -> not_comma rest ->
  Conv (fun fx => read_cols fx (S (length (join_toks tls ++ rest))) (join_toks tls ++ rest)) (cols, rest).
Proof.
  intros H Hne Hnc. apply (comma_list_read read_cols col_toks (fun _ => True)); auto.
  - intros c it [|e al tx a HF _ _]; [discriminate|]. apply Fx_ne in HF. destruct tx; [congruence|discriminate].
  - intros c it n rest0 r [|e al tx a HF Ha Hsa] _ Hr.
    + exact Hr.
    + pose proof HF as [(t0 & r0 & -> & _) _]. autorewrite with flat. cbn [read_cols]. rewrite (Fx_not_star _ _ _ HF).
      eapply conv_bind; [apply (rx_read _ e (a :: SQuoted al :: rest0) HF Hsa)|]. cbn beta iota. rewrite Ha. exact Hr.
Qed.

Definition not_as (rest : list stok) : Prop := match rest with [] => True | t :: _ => is_kw k_AS t = false end.

(**  [ (SELECT DISTINCT * FROM "l") | "l" ] AS "$left" [LEFT] JOIN "r" AS "$right" ON cond *)
Definition join_toks_src (uniq : bool) (l : str) (outer : bool) (r : str) (tc : list stok) : list stok :=
  (if uniq then [lp_t; kw k_SELECT; kw k_DISTINCT; star_t; kw k_FROM; SQuoted l; rp_t] else [SQuoted l])
  ++ [kw k_AS; SQuoted q_left] ++ (if outer then [kw k_LEFT] else []) ++ [kw k_JOIN; SQuoted r; kw k_AS; SQuoted q_right; kw k_ON] ++ tc.

Inductive from_toks : rfrom -> list stok -> Prop :=
| ft_table n : from_toks (RTable n) [SQuoted n]
| ft_join u l o r tc cond : Fx tc cond -> from_toks (RJoin u l o r cond) (join_toks_src u l o r tc).

Lemma read_from_ok from ft rest : from_toks from ft -> stop rest -> not_as rest -> Conv (fun fx => read_from fx (ft ++ rest)) (from, rest).
Proof.
  intros [n|u l o r tc cond HF] Hs Hna.
  - unfold read_from. destruct rest as [|a [|[x| | | | |] r]]; try apply conv_ret. cbn [app]. rewrite Hna. apply conv_ret.
  - unfold join_toks_src, read_from. destruct u, o; cbn -[rx]; (eapply conv_bind; [apply (rx_read _ _ _ HF Hs)|]); apply conv_ret.
Qed.

Lemma read_exprs_ok es tls rest : Forall2 (fun e t => Fx t e) es tls -> es <> [] -> stop rest -> not_comma rest ->
  Conv (fun fx => read_exprs fx (S (length (join_toks tls ++ rest))) (join_toks tls ++ rest)) (es, rest).
Proof.
  intros H Hne Hs Hnc. apply (comma_list_read read_exprs (fun e t => Fx t e) stop); auto.
  - apply stop_comma.
  - intros e it. apply Fx_ne.
  - intros e it n rest0 r HF Hs0 Hr. cbn [read_exprs]. eapply conv_bind; [apply (rx_read _ _ _ HF Hs0)|]. destruct rest0; exact Hr.
Qed.

(** the writer always spells direction and null placement *)
Definition term_toks (tx : list stok) (asc nf : bool) : list stok :=
  tx ++ [kw (if asc then k_ASC else k_DESC); kw k_NULLS; kw (if nf then k_FIRST else k_LAST)].
Definition term_item (t : sexpr * bool * bool) (it : list stok) : Prop :=
  exists tx, Fx tx (fst (fst t)) /\ it = term_toks tx (snd (fst t)) (snd t).

Lemma read_terms_ok terms tls rest : Forall2 term_item terms tls -> terms <> [] -> not_comma rest ->
  Conv (fun fx => read_terms fx (S (length (join_toks tls ++ rest))) (join_toks tls ++ rest)) (terms, rest).
Proof.
  intros H Hne Hnc. apply (comma_list_read read_terms term_item (fun _ => True)); auto.
  - intros t it (tx & HF & ->). apply Fx_ne in HF. destruct tx; [congruence|discriminate].
  - intros [[e asc] nf] it n rest0 r (tx & HF & ->) _ Hr. cbn [fst snd] in *. unfold term_toks. rewrite <- app_assoc. cbn [read_terms].
    eapply conv_bind; [apply (rx_read _ _ _ HF); destruct asc; reflexivity|]. destruct asc, nf; exact Hr.
Qed.

Definition endtok (rest : list stok) : Prop := rest = [] \/ exists r, rest = rp_t :: r \/ rest = semi_t :: r.

Definition opt_toks (k : str) (o : option (list stok)) : list stok := match o with Some t => kw k :: t | None => [] end.
Definition by_toks (k : str) (l : list (list stok)) : list stok := match l with [] => [] | _ => kw k :: kw k_BY :: join_toks l end.

Definition sel_toks (cols : list (list stok)) (from : list stok) w g o l : list stok :=
  kw k_SELECT :: join_toks cols ++ kw k_FROM :: from ++ opt_toks k_WHERE w ++ by_toks k_GROUP g ++ by_toks k_ORDER o ++ opt_toks k_LIMIT l.

Definition opt_reads (e : option sexpr) (t : option (list stok)) : Prop :=
  match e, t with Some e, Some t => Fx t e | None, None => True | _, _ => False end.

(** What follows a clause begins one of the later clauses [ks] or ends the SELECT; so whatever
    holds of those finitely many tokens holds of the token after the clause. *)
Definition tail (ks : list str) (rest : list stok) : Prop :=
  match rest with [] => True | t :: _ => In t (map kw ks ++ [rp_t; semi_t]) end.

Lemma tail_end rest : endtok rest -> tail [] rest.
Proof. intros [-> | (r & [-> | ->])]; cbn; auto. Qed.

Lemma tail_opt k ks o rest : tail ks rest -> tail (k :: ks) (opt_toks k o ++ rest).
Proof. destruct o; [left; reflexivity|]. destruct rest; [auto|right; assumption]. Qed.

Lemma tail_by k ks l rest : tail ks rest -> tail (k :: ks) (by_toks k l ++ rest).
Proof. destruct l; [|left; reflexivity]. destruct rest; [auto|right; assumption]. Qed.

Lemma tail_true (p : stok -> bool) ks rest : tail ks rest -> forallb p (map kw ks ++ [rp_t; semi_t]) = true ->
  match rest with [] => True | t :: _ => p t = true end.
Proof. intros H Hp. destruct rest as [|t r]; [exact I|]. rewrite forallb_forall in Hp. exact (Hp t H). Qed.

Lemma tail_false (p : stok -> bool) ks rest : tail ks rest -> forallb (fun t => negb (p t)) (map kw ks ++ [rp_t; semi_t]) = true ->
  match rest with [] => True | t :: _ => p t = false end.
Proof. intros H Hp. destruct rest as [|t r]; [exact I|]. apply Bool.negb_true_iff. exact (tail_true _ ks (t :: r) H Hp). Qed.

Lemma opt_clause_read k e te rest : is_kw k (kw k) = true -> opt_reads e te -> stop rest ->
  match rest with [] => True | t :: _ => is_kw k t = false end ->
  Conv (fun fx => match opt_toks k te ++ rest with
                  | t :: r' => if is_kw k t then match rx fx r' with Some (e, r'') => Some (Some e, r'') | None => None end
                               else Some (None, opt_toks k te ++ rest)
                  | [] => Some (None, opt_toks k te ++ rest)
                  end) (e, rest).
Proof.
  intros Hkk He Hs Hk. destruct e as [e|], te as [t|]; try contradiction; cbn [opt_toks app].
  - rewrite Hkk. eapply conv_bind; [apply (rx_read _ _ _ He Hs)|]. apply conv_ret.
  - destruct rest as [|t r]; [apply conv_ret|]. rewrite Hk. apply conv_ret.
Qed.

Lemma by_clause_read {X} k (rd : nat -> nat -> list stok -> option (list X * list stok)) xs tls rest : is_kw k (kw k) = true ->
  (tls <> [] -> Conv (fun fx => rd fx (S (length (join_toks tls ++ rest))) (join_toks tls ++ rest)) (xs, rest)) -> (tls = [] -> xs = []) ->
  match rest with [] => True | t :: _ => is_kw k t = false end ->
  Conv (fun fx => match by_toks k tls ++ rest with
                  | t :: b :: r' => if is_kw k t && is_kw k_BY b then rd fx (S (length r')) r' else Some ([], by_toks k tls ++ rest)
                  | _ => Some ([], by_toks k tls ++ rest)
                  end) (xs, rest).
Proof.
  intros Hkk Hrd Hnil Hk. destruct tls as [|t0 tls]; cbn [by_toks app].
  - rewrite (Hnil eq_refl). destruct rest as [|t [|b r]]; try apply conv_ret. rewrite Hk. apply conv_ret.
  - rewrite Hkk. change (is_kw k_BY (kw k_BY)) with true. apply Hrd. discriminate.
Qed.

Lemma read_select_ok cols ctl from ft wh wt g gtl o otl lim lt rest :
  Forall2 col_toks cols ctl -> cols <> [] -> from_toks from ft -> opt_reads wh wt ->
  Forall2 (fun e t => Fx t e) g gtl -> Forall2 term_item o otl -> opt_reads lim lt -> endtok rest ->
  Conv (fun fx => read_select fx (sel_toks ctl ft wt gtl otl lt ++ rest)) (mkSel cols from wh g o lim, rest).
Proof.
  intros Hcols Hcne Hfrom Hwh Hg Ho Hlim Hend. unfold sel_toks. autorewrite with flat.
  set (tL := opt_toks k_LIMIT lt ++ rest). set (tO := by_toks k_ORDER otl ++ tL).
  set (tG := by_toks k_GROUP gtl ++ tO). set (tW := opt_toks k_WHERE wt ++ tG).
  assert (HE : tail [] rest) by apply tail_end, Hend. assert (HL : tail [k_LIMIT] tL) by apply tail_opt, HE.
  assert (HO : tail [k_ORDER; k_LIMIT] tO) by apply tail_by, HL. assert (HG : tail [k_GROUP; k_ORDER; k_LIMIT] tG) by apply tail_by, HO.
  assert (HW : tail [k_WHERE; k_GROUP; k_ORDER; k_LIMIT] tW) by apply tail_opt, HG.
  unfold read_select. change (is_kw k_SELECT (kw k_SELECT)) with true. cbn beta iota zeta.
  eapply conv_bind; [apply (read_cols_ok cols ctl (kw k_FROM :: ft ++ tW) Hcols Hcne eq_refl)|].
  cbn beta iota. change (is_kw k_FROM (kw k_FROM)) with true. cbn iota.
  eapply conv_bind; [apply (read_from_ok from ft tW Hfrom (tail_true stop_tok _ _ HW eq_refl) (tail_false (is_kw k_AS) _ _ HW eq_refl))|].
  eapply conv_bind; [apply (opt_clause_read k_WHERE wh wt tG eq_refl Hwh (tail_true stop_tok _ _ HG eq_refl) (tail_false (is_kw k_WHERE) _ _ HG eq_refl))|].
  eapply conv_bind.
  { apply (by_clause_read k_GROUP read_exprs g gtl tO eq_refl); [|intros ->; inversion Hg; reflexivity|exact (tail_false (is_kw k_GROUP) _ _ HO eq_refl)].
    intros Hne. apply read_exprs_ok; [exact Hg|intros ->; inversion Hg; congruence| |].
    - exact (tail_true stop_tok _ _ HO eq_refl).
    - exact (tail_false (is_p p_comma) _ _ HO eq_refl). }
  eapply conv_bind.
  { apply (by_clause_read k_ORDER read_terms o otl tL eq_refl); [|intros ->; inversion Ho; reflexivity|exact (tail_false (is_kw k_ORDER) _ _ HL eq_refl)].
    intros Hne. apply read_terms_ok; [exact Ho|intros ->; inversion Ho; congruence|exact (tail_false (is_p p_comma) _ _ HL eq_refl)]. }
  eapply conv_bind; [apply (opt_clause_read k_LIMIT lim lt rest eq_refl Hlim (tail_true stop_tok _ _ HE eq_refl) (tail_false (is_kw k_LIMIT) _ _ HE eq_refl))|].
  apply conv_ret.
Qed.

Lemma A_countstar w : plain_word w -> A [SWord w; lp_t; star_t; rp_t] (XCall w [XWord p_star]).
Proof.
  intros [H1 H2]. split; [exists (SWord w), [lp_t; star_t; rp_t]; repeat split; try reflexivity; exact H1|].
  intros rest _. apply conv_S. cbn [sx_atom app]. rewrite H2.
  change (is_p p_lp lp_t) with true. cbn iota. change (is_p p_star star_t && is_p p_rp rp_t) with true. apply conv_ret.
Qed.

Lemma join_toks_flat a l : join_toks (a :: l) = a ++ flat_map (fun x => comma_t :: x) l.
Proof.
  revert a. induction l as [|b l IH]; intros a; [cbn; rewrite app_nil_r; reflexivity|].
  rewrite join_toks_cons, IH. reflexivity.
Qed.

Lemma flat_lit_toks s ts : sql_lex ClickHouse s = Some ts -> forall pl tl, Forall2 (fun p t => ptoks p = Some t) pl tl ->
  ptoks (flat_map (fun p => PLit s :: p) pl) = Some (flat_map (fun t => ts ++ t) tl).
Proof. intros Hs pl tl H. induction H as [|p t pl tl Hp _ IH]; [reflexivity|]. cbn [flat_map]. exact (ptoks_app (PLit s :: p) _ _ _ (ptoks_cons_lit s ts p t Hs Hp) IH). Qed.

Lemma ok_inj {X} (a b : X) : Ok a = Ok b -> a = b.
Proof. congruence. Qed.

Section Select.
Variable source : str.
Variable sc : scope.
Variable vals : str -> sexpr.
Hypothesis Hinv : scope_inv sc vals.
Let isb := isb_of sc.
Let T (e : expr) : sexpr := substv vals (trans isb false e).
Let Tj (e : expr) : sexpr := substv vals (trans isb true e).
Let c := mkCtx sc ModeDefault.

Lemma wexpr_reads e ps : wfr e -> wexpr c e = Ok ps -> exists ts, ptoks ps = Some ts /\ Fx ts (T e).
Proof. intros Hw H. exact (wx_reads c vals Hinv e Hw WPlain ps H). Qed.

Definition den_from (s : ssource) : rfrom :=
  match s with
  | SrcName n => RTable n
  | SrcJoin u l o r cond _ => RJoin u l o r (Tj cond)
  end.

Definition alias_of (col : ext_col) : str := match ec_name col with Some i => iname i | None => implicit_name source (ec_x col) end.
Definition den_ext_col (col : ext_col) : rcol := RExpr (T (ec_x col)) (Some (alias_of col)).

Definition den_body (o : option operator) : list rcol * option sexpr * list sexpr :=
  match o with
  | None | Some (OAs _ _ _) => ([RStar], None, [])
  | Some (OProject _ _ cols) =>
    (map (fun col => RExpr (T (match pc_x col with Some x => x | None => EQual [pc_name col] end)) (Some (iname (pc_name col)))) cols, None, [])
  | Some (OExtend _ _ cols) => (RStar :: map den_ext_col cols, None, [])
  | Some (OSummarize _ _ cols _ groupby) => (map den_ext_col groupby ++ map den_ext_col cols, None, map (fun col => T (ec_x col)) groupby)
  | Some (OWhere _ _ p) => ([RStar], Some (T p), [])
  | Some (OCount _ _) => ([RExpr (XCall k_COUNT [XWord p_star]) (Some n_count_col)], None, [])
  | Some (ORender _ _ chart _ _ props _) =>
    (RStar :: RExpr (XStr (iname chart)) (Some n_render_type)
           :: map (fun p => RExpr (XStr (render_value (rp_value p))) (Some (n_render_prop ++ iname (rp_name p)))) props, None, [])
  | Some _ => ([], None, [])
  end.

Definition den_select (s : subq) : rsel :=
  let '(cols, wh, gb) := den_body (sq_op s) in
  mkSel cols (den_from (sq_source s)) wh gb
        (match sq_sort s with Some terms => map (fun t => (T (st_x t), st_asc t, st_nullsfirst t)) terms | None => [] end)
        (option_map T (sq_take s)).

(** [wfr] expressions, no empty list where SQL wants an item, and none of the operators (sort,
    take, top, join) that the splitting moves to other fields *)
Definition op_wf (o : option operator) : Prop :=
  match o with
  | None | Some (OAs _ _ _) | Some (OCount _ _) | Some (ORender _ _ _ _ _ _ _) => True
  | Some (OProject _ _ cols) => cols <> [] /\ Forall (fun col => match pc_x col with Some x => wfr x | None => True end) cols
  | Some (OExtend _ _ cols) => Forall (fun col => wfr (ec_x col)) cols
  | Some (OSummarize _ _ cols _ groupby) => (cols <> [] \/ groupby <> []) /\ Forall (fun col => wfr (ec_x col)) cols /\ Forall (fun col => wfr (ec_x col)) groupby
  | Some (OWhere _ _ p) => wfr p
  | Some _ => False
  end.

Definition src_wf (s : ssource) : Prop :=
  match s with
  | SrcName _ => True
  | SrcJoin _ _ _ _ cond ps => wfr cond /\ wx (mkCtx sc ModeJoin) WPlain cond = Ok ps
  end.

Definition subq_wf (s : subq) : Prop :=
  op_wf (sq_op s) /\ src_wf (sq_source s) /\
  match sq_sort s with Some terms => terms <> [] /\ Forall (fun t => wfr (st_x t)) terms | None => True end /\
  match sq_take s with Some n => wfr n | None => True end.

Lemma src_reads s : src_wf s -> exists ft, ptoks (render_source s) = Some ft /\ from_toks (den_from s) ft.
Proof.
  destruct s as [n|u l o r cond ps]; cbn [src_wf render_source den_from].
  - intros _. exists [SQuoted n]. split; [reflexivity|constructor].
  - intros [Hw Hx]. destruct (wx_reads (mkCtx sc ModeJoin) vals Hinv cond Hw WPlain ps Hx) as (tc & Htc & HF). cbn [Shape c_mode mode_eqb] in HF.
    exists (join_toks_src u l o r tc). split; [|constructor; exact HF].
    autorewrite with ptoks. rewrite Htc. destruct u, o; reflexivity.
Qed.

Lemma ext_cols_reads cols pl : Forall (fun col => wfr (ec_x col)) cols -> write_ext_cols source c cols = Ok pl ->
  exists tls, Forall2 (fun p t => ptoks p = Some t) pl tls /\ Forall2 col_toks (map den_ext_col cols) tls.
Proof.
  intros Hw H. rewrite Forall_forall in Hw.
  destruct (seq_map_reads _ (fun col t => col_toks (den_ext_col col) t) cols pl H) as (tls & H1 & H2).
  - intros col p Hin Hp. apply bind_ok in Hp as (px & Hpx & [= <-]). destruct (wexpr_reads _ _ (Hw col Hin) Hpx) as (tx & Htx & HF).
    exists (tx ++ [as_t; SQuoted (alias_of col)]). split; [autorewrite with ptoks; rewrite Htx; reflexivity|].
    apply ct_expr; [exact HF|reflexivity|reflexivity].
  - exists tls. split; [exact H1|apply Forall2_map_l; exact H2].
Qed.

Lemma sort_reads terms ps : terms <> [] -> Forall (fun t => wfr (st_x t)) terms -> write_sort c terms = Ok ps ->
  exists otl, ptoks ps = Some (by_toks k_ORDER otl) /\
    Forall2 term_item (map (fun t => (T (st_x t), st_asc t, st_nullsfirst t)) terms) otl.
Proof.
  intros Hne Hw H. unfold write_sort in H. apply bind_ok in H as (ts & Hts & [= <-]). rewrite Forall_forall in Hw.
  destruct (seq_map_reads _ (fun t tl => term_item (T (st_x t), st_asc t, st_nullsfirst t) tl) terms ts Hts) as (tls & H1 & H2).
  - intros t p Hin Hp. apply bind_ok in Hp as (px & Hpx & [= <-]). destruct (wexpr_reads _ _ (Hw t Hin) Hpx) as (tx & Htx & HF).
    exists (term_toks tx (st_asc t) (st_nullsfirst t)). split; [|exists tx; auto].
    autorewrite with ptoks. rewrite Htx. unfold term_toks. destruct (st_asc t), (st_nullsfirst t); reflexivity.
  - exists tls. split; [|apply Forall2_map_l; exact H2].
    autorewrite with ptoks. rewrite (join_pieces_toks _ _ H1). destruct H2; [congruence|reflexivity].
Qed.

Lemma body_reads s body ft : subq_wf s -> ptoks (render_source (sq_source s)) = Some ft -> subq_body source c s = Ok body ->
  exists ctl wt gtl,
    ptoks body = Some (kw k_SELECT :: join_toks ctl ++ kw k_FROM :: ft ++ opt_toks k_WHERE wt ++ by_toks k_GROUP gtl) /\
    let '(cols, wh, gb) := den_body (sq_op s) in
    Forall2 col_toks cols ctl /\ cols <> [] /\ opt_reads wh wt /\ Forall2 (fun e t => Fx t e) gb gtl.
Proof.
  intros (Hop & _) Hft. unfold subq_body.
  destruct (sq_op s) as [o|]; [destruct o|]; cbn [op_wf den_body] in *; try contradiction; intros Hb.
  - injection Hb as <-. exists [[SWord k_COUNT; lp_t; star_t; rp_t; as_t; SQuoted n_count_col]], None, [].
    split; [autorewrite with ptoks; rewrite Hft; cbn [opt_toks by_toks]; rewrite ?app_nil_r; reflexivity|]. split; [|split; [discriminate|split; [exact I|constructor]]].
    constructor; [|constructor]. apply (ct_expr _ _ [SWord k_COUNT; lp_t; star_t; rp_t]); [apply A_Fx, A_countstar; split; reflexivity|reflexivity|reflexivity].
  - apply bind_ok in Hb as (px & Hpx & [= <-]). destruct (wexpr_reads _ _ Hop Hpx) as (tx & Htx & HF).
    exists [[star_t]], (Some tx), []. split; [autorewrite with ptoks; rewrite Hft, Htx; cbn [by_toks]; rewrite app_nil_r; reflexivity|].
    split; [constructor; [apply ct_star|constructor]|split; [discriminate|split; [exact HF|constructor]]].
  - destruct Hop as (Hne & Hw). apply bind_ok in Hb as (cs & Hcs & [= <-]). rewrite Forall_forall in Hw.
    destruct (seq_map_reads _ (fun col t => col_toks (RExpr (T (match pc_x col with Some x => x | None => EQual [pc_name col] end)) (Some (iname (pc_name col)))) t) cols cs Hcs)
      as (tls & H1 & H2).
    { intros col p Hin Hp. apply bind_ok in Hp as (px & Hpx & [= <-]). specialize (Hw col Hin).
      assert (Hwx : exists tx, ptoks px = Some tx /\ Fx tx (T (match pc_x col with Some x => x | None => EQual [pc_name col] end))).
      { destruct (pc_x col) as [x|]; apply wexpr_reads; try assumption. cbn [wfr]. discriminate. }
      destruct Hwx as (tx & Htx & HF). exists (tx ++ [as_t; SQuoted (iname (pc_name col))]). split; [autorewrite with ptoks; rewrite Htx; reflexivity|].
      apply ct_expr; [exact HF|reflexivity|reflexivity]. }
    exists tls, None, []. split.
    + autorewrite with ptoks. rewrite (join_pieces_toks _ _ H1), Hft. cbn [opt_toks by_toks]. rewrite ?app_nil_r. reflexivity.
    + split; [apply Forall2_map_l; exact H2|split; [destruct cols; [congruence|discriminate]|split; [exact I|constructor]]].
  - apply bind_ok in Hb as (cs & Hcs & [= <-]). destruct (ext_cols_reads _ _ Hop Hcs) as (tls & H1 & H2).
    exists ([star_t] :: tls), None, []. split.
    + rewrite join_toks_flat. autorewrite with ptoks. erewrite flat_lit_toks, Hft; [|reflexivity|exact H1].
      cbn [opt_toks by_toks]. rewrite ?app_nil_r. reflexivity.
    + split; [constructor; [apply ct_star|exact H2]|split; [discriminate|split; [exact I|constructor]]].
  - destruct Hop as (Hne & Hwc & Hwg).
    apply bind_ok in Hb as (gs & Hgs & Hb). apply bind_ok in Hb as (cs & Hcs & Hb). apply bind_ok in Hb as (gb & Hgb & [= <-]).
    destruct (ext_cols_reads _ _ Hwg Hgs) as (tg & Hg1 & Hg2). destruct (ext_cols_reads _ _ Hwc Hcs) as (tc & Hc1 & Hc2).
    assert (Hgbr : exists gtl, ptoks gb = Some (by_toks k_GROUP gtl) /\ Forall2 (fun e t => Fx t e) (map (fun col => T (ec_x col)) groupby) gtl).
    { destruct groupby as [|g0 gr].
      - injection Hgb as <-. exists []. split; [reflexivity|constructor].
      - apply bind_ok in Hgb as (ks & Hks & [= <-]). rewrite Forall_forall in Hwg.
        destruct (seq_map_reads _ (fun col t => Fx t (T (ec_x col))) (g0 :: gr) ks Hks) as (tls & H1 & H2).
        { intros col p Hin Hp. apply wexpr_reads; [apply Hwg; exact Hin|exact Hp]. }
        exists tls. split; [|apply Forall2_map_l; exact H2].
        autorewrite with ptoks. rewrite (join_pieces_toks _ _ H1). destruct tls; [inversion H2|reflexivity]. }
    destruct Hgbr as (gtl & Hgb1 & Hgb2).
    exists (tg ++ tc), None, gtl. split.
    + autorewrite with ptoks. rewrite (join_pieces_toks _ _ (Forall2_app Hg1 Hc1)), Hft, Hgb1. reflexivity.
    + split; [apply Forall2_app; assumption|split; [|split; [exact I|exact Hgb2]]].
      destruct Hne as [Hn|Hn]; [destruct cols; [congruence|]|destruct groupby; [congruence|]]; cbn [map app]; try discriminate.
      destruct (map den_ext_col groupby); discriminate.
  - injection Hb as <-. exists [[star_t]], None, []. split; [autorewrite with ptoks; rewrite Hft; cbn [opt_toks by_toks]; rewrite ?app_nil_r; reflexivity|].
    split; [constructor; [apply ct_star|constructor]|split; [discriminate|split; [exact I|constructor]]].
  - apply ok_inj in Hb. subst body. (* [injection] would evaluate the literals, and [Hfl] below would not match; 44 10 there: a comma and a newline *)
    set (ptl := map (fun p => [SString (render_value (rp_value p)); SWord (L "as"); SQuoted (n_render_prop ++ iname (rp_name p))]) props).
    exists ([star_t] :: [SString (iname chart); SWord (L "as"); SQuoted n_render_type] :: ptl), None, []. split.
    + rewrite join_toks_flat. cbn [flat_map].
      assert (Hfl : ptoks (flat_map (fun p => [PLit ([44%N; 10%N] ++ L "    "); PStr (render_value (rp_value p))] ++ lit " as "
                              ++ [PIdent (L "render_prop_" ++ iname (rp_name p))]) props) = Some (flat_map (fun x => comma_t :: x) ptl)).
      { unfold ptl. clear. induction props as [|p r IH]; [reflexivity|]. cbn [flat_map map]. autorewrite with ptoks. rewrite IH. reflexivity. }
      autorewrite with ptoks. rewrite Hfl, Hft. cbn [opt_toks by_toks]. rewrite ?app_nil_r. reflexivity.
    + split; [|split; [discriminate|split; [exact I|constructor]]]. constructor; [apply ct_star|]. constructor.
      * apply (ct_expr _ _ [SString (iname chart)]); [apply A_Fx, A_str|reflexivity|reflexivity].
      * unfold ptl. clear. induction props as [|p r IH]; [constructor|]. cbn [map]. constructor; [|exact IH].
        apply (ct_expr _ _ [SString (render_value (rp_value p))]); [apply A_Fx, A_str|reflexivity|reflexivity].
  - injection Hb as <-. exists [[star_t]], None, []. split; [autorewrite with ptoks; rewrite Hft; cbn [opt_toks by_toks]; rewrite ?app_nil_r; reflexivity|].
    split; [constructor; [apply ct_star|constructor]|split; [discriminate|split; [exact I|constructor]]].
Qed.

Theorem write_subq_reads s ps : subq_wf s -> write_subq source c s = Ok ps ->
  exists ts, ptoks ps = Some ts /\ forall rest, endtok rest -> Conv (fun fx => read_select fx (ts ++ rest)) (den_select s, rest).
Proof.
  intros Hwf H. pose proof Hwf as (Hop & Hsrc & Hsort & Htake). rewrite write_subq_eq in H.
  apply bind_ok in H as (body & Hbody & H). apply bind_ok in H as (srt & Hsrt & H). apply bind_ok in H as (tk & Htk & [= <-]).
  destruct (src_reads _ Hsrc) as (ft & Hft & Hfrom).
  destruct (body_reads s body ft Hwf Hft Hbody) as (ctl & wt & gtl & Hpb & Hden).
  assert (Ho : exists otl, ptoks srt = Some (by_toks k_ORDER otl) /\
             Forall2 term_item (match sq_sort s with Some terms => map (fun t => (T (st_x t), st_asc t, st_nullsfirst t)) terms | None => [] end) otl).
  { unfold subq_sort in Hsrt. destruct (sq_sort s) as [terms|]; [destruct Hsort as [Hne Hw]; apply sort_reads; assumption|].
    injection Hsrt as <-. exists []. split; [reflexivity|constructor]. }
  destruct Ho as (otl & Hps & Ho).
  assert (Hl : exists lt, ptoks tk = Some (opt_toks k_LIMIT lt) /\ opt_reads (option_map T (sq_take s)) lt).
  { unfold subq_take in Htk. destruct (sq_take s) as [n|]; cbn [option_map].
    - apply bind_ok in Htk as (pn & Hpn & [= <-]). destruct (wexpr_reads _ _ Htake Hpn) as (tn & Htn & HF).
      exists (Some tn). split; [autorewrite with ptoks; rewrite Htn; reflexivity|exact HF].
    - injection Htk as <-. exists None. split; [reflexivity|exact I]. }
  destruct Hl as (lt & Hpt & Hl).
  exists (sel_toks ctl ft wt gtl otl lt). split.
  { autorewrite with ptoks. rewrite Hpb, Hps, Hpt. unfold sel_toks. cbn [oapp]. autorewrite with flat. reflexivity. }
  intros rest Hend. unfold den_select. destruct (den_body (sq_op s)) as [[cols wh] gb]. destruct Hden as (Hcols & Hcne & Hwh & Hgb).
  apply read_select_ok; assumption.
Qed.

Definition cte_item (nd : str * rsel) (it : list stok) : Prop :=
  exists ts, it = SQuoted (fst nd) :: as_t :: lp_t :: ts ++ [rp_t] /\
             forall rest, endtok rest -> Conv (fun fx => read_select fx (ts ++ rest)) (snd nd, rest).

Lemma ctes_reads : forall ctes w, Forall subq_wf ctes -> write_ctes source c ctes = Ok w ->
  exists tl, Forall2 cte_item (map (fun s => (sq_name s, den_select s)) ctes) tl /\ ptoks w = Some (join_toks tl).
Proof.
  induction ctes as [|s r IH]; intros w Hwf H; cbn [write_ctes] in H.
  - injection H as <-. exists []. split; [constructor|reflexivity].
  - inversion Hwf as [|s0 r0 Hs Hr]; subst.
    apply bind_ok in H as (body & Hbody & H). apply bind_ok in H as (tl & Htl & [= <-]).
    destruct (write_subq_reads s body Hs Hbody) as (ts & Hts & Hread). destruct (IH tl Hr Htl) as (tls & H1 & H2).
    exists ((SQuoted (sq_name s) :: as_t :: lp_t :: ts ++ [rp_t]) :: tls).
    split; [constructor; [exists ts; split; [reflexivity|exact Hread]|exact H1]|].
    autorewrite with ptoks. rewrite Hts, H2. destruct r; inversion H1; subst; [reflexivity|].
    rewrite join_toks_cons. autorewrite with flat. reflexivity.
Qed.

Lemma read_ctes_ok ctes tls rest : Forall2 cte_item ctes tls -> ctes <> [] -> not_comma rest ->
  Conv (fun fx => read_ctes fx (S (length (join_toks tls ++ rest))) (join_toks tls ++ rest)) (ctes, rest).
Proof.
  intros H Hne Hnc. apply (comma_list_read read_ctes cte_item (fun _ => True)); auto.
  - intros nd it (ts & -> & _). discriminate.
  - intros [name sel] it n rest0 r (ts & -> & Hread) _ Hr. cbn [fst snd] in *. autorewrite with flat. cbn [read_ctes].
    change (is_kw k_AS as_t && is_p p_lp lp_t) with true. cbn iota.
    eapply conv_bind; [apply (Hread (rp_t :: rest0)); right; exists rest0; left; reflexivity|].
    cbn beta iota. change (is_p p_rp rp_t) with true. exact Hr.
Qed.

(** [WITH name AS (select), ...] select;  re-reads as the subqueries it was printed from. *)
Theorem statement_reads ctes q w body : Forall subq_wf ctes -> subq_wf q ->
  write_ctes source c ctes = Ok w -> write_subq source c q = Ok body ->
  exists ts, ptoks ((match ctes with [] => [] | _ => lit "WITH " end) ++ w ++ body ++ lit ";") = Some ts /\
    Conv (fun fx => read_stmt fx ts) (map (fun s => (sq_name s, den_select s)) ctes, den_select q).
Proof.
  intros Hwc Hwq Hw Hb.
  destruct (ctes_reads ctes w Hwc Hw) as (tl & Htl & Hpw).
  destruct (write_subq_reads q body Hwq Hb) as (tq & Htq & Hread).
  specialize (Hread [semi_t] (or_intror (ex_intro _ [] (or_intror eq_refl)))).
  (* a SELECT begins with neither WITH nor a comma *)
  assert (Hhd : exists w0 r0, tq ++ [semi_t] = SWord w0 :: r0 /\ map upper_c w0 = k_SELECT).
  { destruct (conv_some _ _ Hread) as (fx & Hfx). unfold read_select in Hfx. destruct (tq ++ [semi_t]) as [|t0 r0]; [discriminate|].
    destruct (is_kw k_SELECT t0) eqn:Es; [|discriminate]. destruct t0 as [w0|w0|w0|w0|w0|w0]; try discriminate Es.
    exists w0, r0. split; [reflexivity|apply str_eqb_eq, Es]. }
  destruct Hhd as (w0 & r0 & E & Hk).
  destruct ctes as [|s0 ctes'].
  - inversion Htl; subst. cbn [write_ctes] in Hw. injection Hw as <-.
    exists (tq ++ [semi_t]). split; [autorewrite with ptoks; rewrite Htq; reflexivity|].
    unfold read_stmt. rewrite E. cbn [is_kw]. rewrite Hk. cbn beta iota zeta. rewrite <- E.
    eapply conv_bind; [exact Hread|]. apply conv_ret.
  - exists (SWord k_WITH :: join_toks tl ++ tq ++ [semi_t]). split; [autorewrite with ptoks; rewrite Hpw, Htq; reflexivity|].
    unfold read_stmt. change (is_kw k_WITH (SWord k_WITH)) with true. cbn beta iota zeta.
    eapply conv_subst; [apply (read_ctes_ok _ tl (tq ++ [semi_t]) Htl); [discriminate|rewrite E; reflexivity]|intros fx ->; reflexivity|].
    cbn beta iota zeta. eapply conv_bind; [exact Hread|]. apply conv_ret.
Qed.
End Select.
