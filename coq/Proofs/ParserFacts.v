(** * C08: the parser cuts a token range for a sub-parser ([split], [split_semi]) and checks that all
    of it was used ([end_split]); the statement loop never drops an error, so a token left over makes
    Parse fail. *)
From PQL Require Import Model.Parser.
Local Open Scope list_scope.

Lemma app_nonempty_r {A} (a b : list A) : b <> [] -> a ++ b <> [].
Proof. destruct a; cbn; [auto|discriminate]. Qed.
Lemma app_nonempty_l {A} (a b : list A) : a <> [] -> a ++ b <> [].
Proof. destruct a; cbn; [congruence|discriminate]. Qed.

Lemma split_toks_app search : forall ts stack, fst (split_toks search stack ts) ++ snd (split_toks search stack ts) = ts.
Proof.
  induction ts as [|t r IH]; intros stack; [reflexivity|].
  cbn [split_toks].
  repeat match goal with
         | |- context [if ?b then _ else _] => destruct b
         | |- context [match ?s with [] => _ | _ :: _ => _ end] => destruct s
         | |- context [let '(a, b) := split_toks ?x ?y ?z in _] =>
             let H := fresh in pose proof (IH y) as H; destruct (split_toks x y z); cbn [fst snd] in *
         end; cbn [fst snd app]; try reflexivity; try (f_equal; assumption).
Qed.

Theorem split_partition search ts : fst (split search ts) ++ snd (split search ts) = ts.
Proof. apply split_toks_app. Qed.

Lemma split_semi_app ts : fst (split_semi ts) ++ snd (split_semi ts) = ts.
Proof.
  induction ts as [|t r IH]; [reflexivity|]. cbn [split_semi].
  destruct (is_kind KSemi t); [reflexivity|].
  destruct (split_semi r). cbn [fst snd app] in *. f_equal. exact IH.
Qed.

Lemma split_semi_no_semi ts : forall t, In t (fst (split_semi ts)) -> is_kind KSemi t = false.
Proof.
  induction ts as [|x r IH]; cbn [split_semi]; [intros t []|].
  destruct (is_kind KSemi x) eqn:E; [intros t []|].
  destruct (split_semi r). cbn [fst] in *. intros t [<-|H]; [exact E|apply IH; exact H].
Qed.

Lemma split_semi_rest ts : match snd (split_semi ts) with [] => True | t :: _ => is_kind KSemi t = true end.
Proof.
  induction ts as [|x r IH]; cbn [split_semi]; [exact I|].
  destruct (is_kind KSemi x) eqn:E; [exact E|].
  destruct (split_semi r). cbn [snd] in *. exact IH.
Qed.

Theorem end_split_reports ts : ts <> [] -> end_split ts <> [].
Proof. destruct ts; [congruence|discriminate]. Qed.

Lemma p_statements_acc srclen n : forall fuel ts acc, acc <> [] -> snd (p_statements srclen n fuel ts acc) <> [].
Proof.
  induction n as [|n IH]; intros fuel ts acc Hacc; cbn [p_statements]; [discriminate|].
  destruct (split_semi ts) as [sub rest].
  destruct (p_statement srclen fuel sub) as [[s subrest] e].
  assert (Hacc' : snd (if is_nf e then match subrest with [] => (Some (@nil stmt), acc) | t :: _ => (Some [], e ++ err_at (tstart t)) end
                       else (option_map (fun s => [s]) s, acc ++ opaque e ++ end_split subrest)) <> []).
  { destruct (is_nf e); [destruct subrest; cbn [snd]; [exact Hacc|apply app_nonempty_r; discriminate]|].
    cbn [snd]. apply app_nonempty_l. exact Hacc. }
  destruct (if is_nf e then _ else _) as [here acc'] eqn:E. cbn [snd] in Hacc'.
  destruct rest as [|semi rest']; [exact Hacc'|].
  specialize (IH fuel rest' acc' Hacc'). destruct (p_statements srclen n fuel rest' acc'). exact IH.
Qed.

(** if a statement's sub-parser stops before the end of its range, Parse fails *)
Theorem leftover_tokens_rejected srclen n fuel ts acc :
  let sub := fst (split_semi ts) in
  let '(s, subrest, e) := p_statement srclen fuel sub in
  subrest <> [] -> snd (p_statements srclen (S n) fuel ts acc) <> [].
Proof.
  cbn zeta. cbn [p_statements]. destruct (split_semi ts) as [sub rest]. cbn [fst].
  destruct (p_statement srclen fuel sub) as [[s subrest] e]. intros Hne.
  assert (Hacc' : snd (if is_nf e then match subrest with [] => (Some (@nil stmt), acc) | t :: _ => (Some [], e ++ err_at (tstart t)) end
                       else (option_map (fun s => [s]) s, acc ++ opaque e ++ end_split subrest)) <> []).
  { destruct (is_nf e).
    - destruct subrest; [congruence|]. cbn [snd]. apply app_nonempty_r. discriminate.
    - cbn [snd]. apply app_nonempty_r, app_nonempty_r, end_split_reports. exact Hne. }
  destruct (if is_nf e then _ else _) as [here acc']. cbn [snd] in Hacc'.
  destruct rest as [|semi rest']; [exact Hacc'|].
  pose proof (p_statements_acc srclen n fuel rest' acc' Hacc') as H.
  destruct (p_statements srclen n fuel rest' acc'). exact H.
Qed.
