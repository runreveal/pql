(** * The command-line loop, one piece at a time: what [do_piece] does with a statement that
    compiles and with one that does not; a failure and what has been printed are never taken back,
    so the exit status is sticky and the output is only appended to. *)
From PQL Require Import Model.Cli.
Local Open Scope list_scope.

Theorem failed_piece st p :
  (if is_let_piece p then compile_ok (prelude st ++ p ++ semi_x) else compile_ok (prelude st ++ p)) = None ->
  failed (do_piece st p) = true /\ prelude (do_piece st p) = prelude st /\ out (do_piece st p) = out st.
Proof.
  unfold do_piece. destruct (is_let_piece p); intros ->; cbn; auto.
Qed.

Theorem ok_query_piece st p sql : is_let_piece p = false -> compile_ok (prelude st ++ p) = Some sql ->
  out (do_piece st p) = out st ++ sql ++ [10; 10]%N /\ prelude (do_piece st p) = prelude st /\ failed (do_piece st p) = failed st.
Proof. unfold do_piece. intros -> ->. cbn. auto. Qed.

Theorem ok_let_piece st p sql : is_let_piece p = true -> compile_ok (prelude st ++ p ++ semi_x) = Some sql ->
  out (do_piece st p) = out st /\ prelude (do_piece st p) = prelude st ++ p ++ semi_nl /\ failed (do_piece st p) = failed st.
Proof. unfold do_piece. intros -> ->. cbn. auto. Qed.

(** [later st st']: from every state to every state the loop reaches from it; the pending text is
    not looked at *)
Definition later (st st' : cli_state) : Prop :=
  (failed st = true -> failed st' = true) /\ exists suffix, out st' = out st ++ suffix.

Lemma later_refl st : later st st.
Proof. split; [auto|]. exists []. symmetry. apply app_nil_r. Qed.

Lemma later_trans a b c : later a b -> later b c -> later a c.
Proof.
  intros [F1 [s1 O1]] [F2 [s2 O2]]. split; [auto|]. exists (s1 ++ s2). rewrite O2, O1, app_assoc. reflexivity.
Qed.

Lemma do_piece_later st p : later st (do_piece st p).
Proof.
  unfold do_piece, later. destruct (is_let_piece p); destruct (compile_ok _); cbn [failed out].
  - apply later_refl.
  - split; [reflexivity|apply later_refl].
  - split; [auto|eexists; reflexivity].
  - split; [reflexivity|apply later_refl].
Qed.

Lemma fold_do_piece_later ps : forall st, later st (fold_left do_piece ps st).
Proof.
  induction ps as [|p r IH]; intros st; cbn [fold_left]; [apply later_refl|].
  apply later_trans with (do_piece st p); [apply do_piece_later|apply IH].
Qed.

Lemma do_line_later st l : later st (do_line st l).
Proof.
  unfold do_line. destruct (rev (split_statements _)) as [|lastp [|x rinit]].
  - apply later_refl.
  - exact (later_refl st).
  - exact (fold_do_piece_later (rev (x :: rinit)) st).
Qed.

Theorem run_events_later evs : forall st,
  (failed st = true -> o_fail (run_events st evs) = true) /\ exists suffix, o_stdout (run_events st evs) = out st ++ suffix.
Proof.
  assert (Hnil : forall st, exists suffix, out st = out st ++ suffix) by (intros st; apply later_refl).
  induction evs as [|e r IH]; intros st; cbn [run_events].
  - unfold finish. destruct (scan (pending st)); [split; [auto|apply Hnil]|].
    destruct (compile_ok _); cbn [o_fail o_stdout]; split; auto. eexists; reflexivity.
  - destruct e as [l|]; [|split; [reflexivity|apply Hnil]].
    destruct (IH (do_line st l)) as [F1 [s1 O1]]. destruct (do_line_later st l) as [F2 [s2 O2]].
    split; [auto|]. exists (s2 ++ s1). rewrite O1, O2, app_assoc. reflexivity.
Qed.

Theorem failure_is_sticky evs : forall st, failed st = true -> o_fail (run_events st evs) = true.
Proof. intros st. apply run_events_later. Qed.

Theorem output_is_append_only evs : forall st, exists suffix, o_stdout (run_events st evs) = out st ++ suffix.
Proof. intros st. apply run_events_later. Qed.

Theorem read_error_fails evs : In ReadError evs -> forall st, o_fail (run_events st evs) = true.
Proof.
  induction evs as [|e r IH]; intros Hin st; [destruct Hin|].
  cbn [run_events]. destruct e as [l|]; [|reflexivity].
  destruct Hin as [H|H]; [discriminate|]. apply IH. exact H.
Qed.
