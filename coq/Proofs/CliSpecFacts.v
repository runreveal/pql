(** * The line loop computes the one-shot specification, for every layout of the script over
    lines (property C16, Props/C16.v). *)
From PQL Require Import Spec.CliSpec Proofs.LexerFacts Proofs.SplitFacts Proofs.LexCut Proofs.ScanCut Proofs.Locality.
From Coq Require Import Lia.
Local Open Scope list_scope.
Local Open Scope nat_scope.

(** where the piece in progress starts after the tokens [ts] *)
Fixpoint next_start (start : nat) (ts : list token) : nat :=
  match ts with
  | [] => start
  | t :: r => match tkind t with KSemi => next_start (tend t) r | _ => next_start start r end
  end.

Fixpoint completed (s : str) (start : nat) (ts : list token) : list str :=
  match ts with
  | [] => []
  | t :: r => match tkind t with
              | KSemi => slice s start (tstart t) :: completed s (tend t) r
              | _ => completed s start r
              end
  end.

Lemma split_app s ts1 : forall start ts2,
  split_at_semis s start (ts1 ++ ts2) = completed s start ts1 ++ split_at_semis s (next_start start ts1) ts2.
Proof.
  induction ts1 as [|t r IH]; intros start ts2; cbn [app split_at_semis completed next_start]; [reflexivity|].
  destruct (tkind t); try apply IH. cbn [app]. f_equal. apply IH.
Qed.

Lemma split_as_completed s ts : forall start,
  split_at_semis s start ts = completed s start ts ++ [skipn (next_start start ts) s].
Proof. intros start. rewrite <- (app_nil_r ts) at 1. rewrite split_app. reflexivity. Qed.

Lemma slice_app_le s x a b : b <= length s -> slice (s ++ x) a b = slice s a b.
Proof.
  intros H. unfold slice. destruct (Nat.le_gt_cases a (length s)) as [Ha|Ha].
  - rewrite skipn_app_le by exact Ha. rewrite firstn_app_le; [reflexivity|]. rewrite skipn_length. lia.
  - replace (b - a) with 0 by lia. reflexivity.
Qed.

Lemma completed_app s x ts : forall start lo, toks_within lo (length s) ts ->
  completed (s ++ x) start ts = completed s start ts.
Proof.
  induction ts as [|t r IH]; intros start lo W; cbn [completed]; [reflexivity|].
  inversion W as [|? ? ? ? A B C W']; subst.
  destruct (tkind t); try (eapply IH; exact W').
  rewrite slice_app_le by lia. f_equal. eapply IH. exact W'.
Qed.

Lemma next_start_bound ts : forall lo hi start, toks_within lo hi ts -> start <= hi -> next_start start ts <= hi.
Proof.
  induction ts as [|t r IH]; intros lo hi start W Hs; cbn [next_start]; [exact Hs|].
  inversion W as [|? ? ? ? A B C W']; subst.
  destruct (tkind t); try (eapply IH; [exact W'|exact Hs]). eapply IH; [exact W'|lia].
Qed.

Lemma next_start_shift k ts : forall start, next_start (k + start) (map (shift_tok k) ts) = k + next_start start ts.
Proof.
  induction ts as [|t r IH]; intros start; cbn [map next_start]; [reflexivity|].
  change (tkind (shift_tok k t)) with (tkind t). change (tend (shift_tok k t)) with (k + tend t).
  destruct (tkind t); apply IH.
Qed.

Lemma no_semi_completed s ts : forall start, no_semi ts = true -> completed s start ts = [] /\ next_start start ts = start.
Proof.
  induction ts as [|t r IH]; intros start H; cbn [completed next_start]; [auto|].
  cbn [no_semi] in H. apply andb_prop in H as [Ht Hr]. apply Bool.negb_true_iff in Ht.
  destruct (tkind t) eqn:E; try (apply IH; exact Hr). vm_compute in Ht. discriminate.
Qed.

(** the key fact: more text after a newline only extends the last piece *)
Definition ends_with_nl (t : str) : Prop := t = [] \/ exists a, t = a ++ [10%N].

Lemma scan_after_nl t x : ends_with_nl t -> scan (t ++ x) = scan t ++ map (shift_tok (length t)) (scan x).
Proof.
  intros [->|(a & ->)].
  - cbn [app length]. rewrite map_shift_0. reflexivity.
  - rewrite <- app_assoc. cbn [app]. rewrite scan_nl. rewrite app_length. cbn [length].
    replace (length a + 1) with (S (length a)) by lia. reflexivity.
Qed.

Lemma skipn_ends_with_nl t n : ends_with_nl t -> n < length t -> ends_with_nl (skipn n t).
Proof.
  intros [->|(a & ->)] Hn; [cbn in Hn; lia|]. right. rewrite app_length in Hn. cbn [length] in Hn.
  exists (skipn n a). rewrite skipn_app_le by lia. reflexivity.
Qed.

Theorem split_after_nl t x : ends_with_nl t ->
  split_statements (t ++ x) = removelast (split_statements t) ++ split_statements (last (split_statements t) [] ++ x).
Proof.
  intros Hnl. unfold split_statements at 1 2 4.
  rewrite (scan_after_nl t x Hnl).
  rewrite split_app. rewrite (split_as_completed t (scan t) 0).
  rewrite removelast_last, last_last.
  rewrite (completed_app t x (scan t) 0 0 (scan_within t)). f_equal.
  set (ns := next_start 0 (scan t)).
  assert (Hns : ns <= length t) by (apply (next_start_bound (scan t) 0 (length t) 0 (scan_within t)); lia).
  set (lastp := skipn ns t).
  (* the last piece has no semicolon token of its own *)
  assert (Hlast_in : In lastp (split_statements t)).
  { unfold split_statements. rewrite split_as_completed. apply in_or_app. right. left. reflexivity. }
  pose proof (pieces_have_no_semi t lastp Hlast_in) as Hno.
  assert (Hlnl : ends_with_nl lastp).
  { destruct (Nat.eq_dec ns (length t)) as [E|E].
    - left. subst lastp. rewrite E. apply skipn_all.
    - apply skipn_ends_with_nl; [exact Hnl|lia]. }
  unfold split_statements. rewrite (scan_after_nl lastp x Hlnl).
  rewrite split_app.
  destruct (no_semi_completed (lastp ++ x) (scan lastp) 0 Hno) as (-> & ->). cbn [app].
  assert (Hlen : length t = ns + length lastp) by (subst lastp; rewrite skipn_length; lia).
  rewrite Hlen. rewrite <- map_shift_shift.
  replace ns with (ns + 0) at 1 by lia. rewrite split_shift.
  rewrite skipn_app_le by exact Hns. reflexivity.
Qed.

Lemma do_piece_set_pending s p x : do_piece (set_pending s p) x = set_pending (do_piece s x) p.
Proof.
  unfold do_piece, set_pending. cbn [prelude failed out nlogged pending].
  destruct (is_let_piece x); destruct (compile_ok _); reflexivity.
Qed.

Lemma fold_set_pending l : forall s p, fold_left do_piece l (set_pending s p) = set_pending (fold_left do_piece l s) p.
Proof.
  induction l as [|x r IH]; intros s p; cbn [fold_left]; [reflexivity|].
  rewrite do_piece_set_pending. apply IH.
Qed.

Lemma set_pending_twice s p q : set_pending (set_pending s p) q = set_pending s q.
Proof. reflexivity. Qed.

Lemma join_semis_single p : join_semis [p] = p.
Proof. reflexivity. Qed.

Lemma do_line_state T l : ends_with_nl T ->
  do_line (state_of_text T) l = state_of_text (T ++ l ++ [10%N]).
Proof.
  intros Hnl. unfold do_line.
  change (pending (state_of_text T)) with (last (split_statements T) []).
  set (buf := last (split_statements T) [] ++ l ++ [10%N]).
  pose proof (split_after_nl T (l ++ [10%N]) Hnl) as Hsplit. fold buf in Hsplit.
  pose proof (split_statements_nonempty buf) as Hne.
  destruct (exists_last Hne) as (init & lastp & Epieces).
  set (A := removelast (split_statements T)) in *.
  assert (Erhs : state_of_text (T ++ l ++ [10%N]) =
                 set_pending (fold_left do_piece init (fold_left do_piece A cli_init)) lastp).
  { unfold state_of_text. rewrite Hsplit, Epieces, app_assoc, removelast_last, last_last, fold_left_app. reflexivity. }
  rewrite Erhs, Epieces. clear Erhs.
  rewrite rev_app_distr. cbn [rev app].
  destruct (rev init) as [|x rinit] eqn:Einit.
  - (* a single piece: the buffer is kept *)
    assert (init = []) as -> by (apply (f_equal (@rev str)) in Einit; rewrite rev_involutive in Einit; exact Einit).
    cbn [fold_left app] in *.
    assert (lastp = buf) as ->.
    { pose proof (split_join buf) as Hj. rewrite Epieces in Hj. exact Hj. }
    reflexivity.
  - assert (Hinit : rev (x :: rinit) = init) by (rewrite <- Einit; apply rev_involutive).
    rewrite Hinit. unfold state_of_text. fold A.
    change (mkCli lastp (prelude ?s) (failed ?s) (out ?s) (nlogged ?s)) with (set_pending s lastp).
    rewrite fold_set_pending. reflexivity.
Qed.

Lemma ends_with_nl_line T l : ends_with_nl (T ++ l ++ [10%N]).
Proof. right. exists (T ++ l). rewrite app_assoc. reflexivity. Qed.

Theorem run_lines_from T : ends_with_nl T -> forall lines,
  run_events (state_of_text T) (map Line lines) = expected (T ++ text_of lines).
Proof.
  intros Hnl lines. revert T Hnl. induction lines as [|l r IH]; intros T Hnl; cbn [map run_events text_of concat].
  - rewrite app_nil_r. reflexivity.
  - rewrite do_line_state by exact Hnl. rewrite IH by apply ends_with_nl_line.
    f_equal. unfold text_of. rewrite <- !app_assoc. reflexivity.
Qed.

Theorem run_is_expected lines : run (map Line lines) = expected (text_of lines).
Proof.
  unfold run. change cli_init with (state_of_text []).
  rewrite (run_lines_from [] (or_introl eq_refl) lines). reflexivity.
Qed.

Corollary layout_free l1 l2 : text_of l1 = text_of l2 -> run (map Line l1) = run (map Line l2).
Proof. intros H. rewrite !run_is_expected, H. reflexivity. Qed.
