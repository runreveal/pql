(** * Everything the writer prints satisfies [glue_ok].
    Each written expression is a "segment": internally glued, starting with a character that may
    follow an opening parenthesis, a space or (for operands) a sign, and ending with a character
    after which a space, a closing bracket, a comma or a semicolon is read apart.
    Character codes: 10 newline, 34 double quote, 39 single quote, 40 41 `(` `)`, 43 45 `+` `-`,
    46 `.`, 83 `S` (of SELECT), 93 `]`. *)
From PQL Require Import Model.Compile Spec.SqlLex Proofs.QuoteFacts Proofs.SqlGlue Proofs.ExprInd Proofs.TableFacts Proofs.WriterFacts Proofs.ReadBack.
From Coq Require Import Lia ZifyBool String.
Local Open Scope list_scope.
Local Open Scope nat_scope.
Local Notation length := List.length (only parsing).

Definition lastcompat (s : str) (nx : option N) : bool :=
  match last_char s with Some x => nx_compat x nx | None => true end.

Lemma atoms_text_nonempty l : glue_atoms l None = true -> l <> [] -> atoms_text l <> [].
Proof.
  destruct l as [|a r]; [congruence|]. intros H _. cbn [glue_atoms] in H. apply andb_prop in H as [H _]. apply andb_prop in H as [Hwf _].
  pose proof (atom_nonempty a Hwf). cbn [atoms_text flat_map]. destruct (atom_text a); [cbn [length] in *; lia|discriminate].
Qed.

Lemma glue_atoms_nx l nx : glue_atoms l nx = glue_atoms l None && lastcompat (atoms_text l) nx.
Proof.
  induction l as [|a r IH]; [reflexivity|]. cbn [glue_atoms]. rewrite IH.
  destruct (atom_wf a) eqn:Hwf; [|reflexivity]. cbn [andb].
  pose proof (atom_nonempty a Hwf) as Hne.
  destruct r as [|b r'].
  - cbn [atoms_text flat_map first_of glue_atoms andb]. rewrite app_nil_r. unfold atom_follow, lastcompat.
    destruct (last_char (atom_text a)); cbn [nx_compat]; [rewrite Bool.andb_true_r|]; reflexivity.
  - destruct (glue_atoms (b :: r') None) eqn:Hg; [|rewrite !Bool.andb_false_r; reflexivity].
    pose proof (atoms_text_nonempty _ Hg ltac:(discriminate)) as Hr.
    assert (Hf : forall nx', first_of (atoms_text (b :: r')) nx' = first_of (atoms_text (b :: r')) None) by (intros nx'; destruct (atoms_text (b :: r')); [contradiction|reflexivity]).
    rewrite (Hf nx). unfold lastcompat at 2. change (atoms_text (a :: b :: r')) with (atom_text a ++ atoms_text (b :: r')).
    rewrite last_char_app by exact Hr. fold (lastcompat (atoms_text (b :: r')) nx).
    destruct (atom_follow a _), (lastcompat (atoms_text (b :: r')) nx); reflexivity.
Qed.

Lemma piece_glue_nx p nx : piece_glue p nx = piece_glue p None && lastcompat (render_piece p) nx.
Proof.
  unfold piece_glue. destruct (piece_atoms p) as [l|] eqn:E; [|reflexivity].
  rewrite glue_atoms_nx, (piece_atoms_text _ _ E). reflexivity.
Qed.

Lemma render_cons p r : render (p :: r) = render_piece p ++ render r.
Proof. reflexivity. Qed.

Lemma lastcompat_nil nx : lastcompat [] nx = true.
Proof. reflexivity. Qed.

Lemma lastcompat_none s : lastcompat s None = true.
Proof. unfold lastcompat. destruct (last_char s); reflexivity. Qed.

Lemma lastcompat_app (a b : str) nx : b <> [] -> lastcompat (a ++ b) nx = lastcompat b nx.
Proof. intros H. unfold lastcompat. rewrite last_char_app by exact H. reflexivity. Qed.

Lemma pieces_glue_nx ps nx : pieces_glue ps nx = pieces_glue ps None && lastcompat (render ps) nx.
Proof.
  induction ps as [|p r IH]; [reflexivity|]. cbn [pieces_glue]. rewrite IH, render_cons.
  rewrite (piece_glue_nx p (first_of (render r) nx)), (piece_glue_nx p (first_of (render r) None)).
  destruct (piece_glue p None); [|reflexivity]. cbn [andb].
  destruct (render r) as [|y t] eqn:Er.
  - cbn [first_of]. rewrite app_nil_r, lastcompat_none. cbn [andb].
    destruct (pieces_glue r None); [|rewrite !Bool.andb_false_r; reflexivity]. cbn [andb].
    rewrite Bool.andb_true_r. reflexivity.
  - cbn [first_of]. rewrite lastcompat_app by discriminate.
    destruct (lastcompat (render_piece p) (Some y)), (pieces_glue r None), (lastcompat (y :: t) nx); reflexivity.
Qed.

Lemma pieces_glue_app a b nx : pieces_glue (a ++ b) nx = pieces_glue a (first_of (render b) nx) && pieces_glue b nx.
Proof.
  induction a as [|p r IH]; cbn [app pieces_glue]; [reflexivity|]. rewrite IH, render_app, first_of_app.
  destruct (piece_glue p _), (pieces_glue r _), (pieces_glue b nx); reflexivity.
Qed.

(** [Seg P Q ps]: [ps] is glued, its text starts with a [P] character and ends with a [Q] one.
    [joint Q P]: a [P] character may follow a [Q] one ([seg_app]). *)
Definition starts_in (P : N -> bool) (s : str) : Prop := match s with c :: _ => P c = true | [] => False end.
Definition ends_in (Q : N -> bool) (s : str) : Prop := match last_char s with Some x => Q x = true | None => False end.

Definition Seg (P Q : N -> bool) (ps : list piece) : Prop :=
  pieces_glue ps None = true /\ starts_in P (render ps) /\ ends_in Q (render ps).

Definition joint (Q P : N -> bool) : Prop := forall x y, Q x = true -> P y = true -> compat x y = true.

Lemma starts_nonempty P s : starts_in P s -> s <> [].
Proof. destruct s; [contradiction|discriminate]. Qed.
Lemma ends_nonempty Q s : ends_in Q s -> s <> [].
Proof. unfold ends_in, last_char. destruct s; [cbn; contradiction|discriminate]. Qed.

Lemma seg_app P Q P' Q' a b : Seg P Q a -> Seg P' Q' b -> joint Q P' -> Seg P Q' (a ++ b).
Proof.
  intros (Ga & Sa & Ea) (Gb & Sb & Eb) J. unfold Seg. rewrite pieces_glue_app, render_app. split; [|split].
  - rewrite pieces_glue_nx, Ga, Gb. cbn [andb]. rewrite Bool.andb_true_r.
    unfold lastcompat. unfold ends_in in Ea. destruct (last_char (render a)) as [x|]; [|contradiction].
    destruct (render b) as [|y t]; [contradiction|]. cbn [first_of nx_compat]. apply J; assumption.
  - destruct (render a); [contradiction|exact Sa].
  - unfold ends_in. rewrite last_char_app by (eapply ends_nonempty; exact Eb). exact Eb.
Qed.

Lemma seg_weaken (P Q P' Q' : N -> bool) ps : Seg P Q ps -> (forall c, P c = true -> P' c = true) -> (forall c, Q c = true -> Q' c = true) -> Seg P' Q' ps.
Proof.
  intros (G & S & E) HP HQ. split; [exact G|]. split.
  - destruct (render ps); [contradiction|]. apply HP. exact S.
  - unfold ends_in in *. destruct (last_char (render ps)); [apply HQ; exact E|contradiction].
Qed.

Definition is_start_op (c : N) : bool := (c =? 34)%N || (c =? 39)%N || is_digit c || is_word_start c || (c =? 40)%N.
Definition is_start (c : N) : bool := is_start_op c || (c =? 45)%N || (c =? 43)%N.
Definition is_end (c : N) : bool := (c =? 34)%N || (c =? 39)%N || is_word_char c || (c =? 46)%N || (c =? 41)%N || (c =? 93)%N.

Lemma start_op_start c : is_start_op c = true -> is_start c = true.
Proof. unfold is_start. intros ->. reflexivity. Qed.

Lemma seg_op_start Q ps : Seg is_start_op Q ps -> Seg is_start Q ps.
Proof. intros H. eapply seg_weaken; [exact H|apply start_op_start|auto]. Qed.

(** characters after which ([safe1]) / before which ([safe2]) anything is read apart *)
Definition safe1 (x : N) : bool :=
  negb (is_word_char x) && negb (x =? 46)%N && negb (x =? 45)%N && negb (x =? 47)%N && negb (x =? 60)%N && negb (x =? 62)%N
  && negb (x =? 124)%N && negb (x =? 34)%N && negb (x =? 39)%N.
Definition safe2 (y : N) : bool :=
  negb (is_word_char y) && negb (y =? 46)%N && negb (y =? 45)%N && negb (y =? 42)%N && negb (y =? 62)%N && negb (y =? 61)%N
  && negb (y =? 124)%N && negb (y =? 34)%N && negb (y =? 39)%N.

Lemma compat_safe1 x y : safe1 x = true -> compat x y = true.
Proof.
  unfold safe1. intros H.
  repeat match type of H with _ && _ = true => let H2 := fresh "P" in apply andb_prop in H as [H H2]; apply Bool.negb_true_iff in H2 end.
  apply Bool.negb_true_iff in H. unfold compat. rewrite H, P, P0, P1, P2, P3, P4, P5, P6. reflexivity.
Qed.

Lemma compat_safe2 x y : safe2 y = true -> compat x y = true.
Proof.
  unfold safe2. intros H.
  repeat match type of H with _ && _ = true => let H2 := fresh "P" in apply andb_prop in H as [H H2]; apply Bool.negb_true_iff in H2 end.
  apply Bool.negb_true_iff in H. unfold compat. rewrite H, P, P0, P1, P2, P3, P4, P5, P6. cbn [orb].
  rewrite !Bool.andb_false_r. reflexivity.
Qed.

Lemma joint_after P : joint safe1 P.
Proof. intros x y Hx _. apply compat_safe1. exact Hx. Qed.
Lemma joint_before Q : joint Q safe2.
Proof. intros x y _ Hy. apply compat_safe2. exact Hy. Qed.

Lemma joint_minus_op : joint (N.eqb 45) is_start_op.
Proof.
  intros x y Hx Hy. apply N.eqb_eq in Hx. subst x.
  assert (H : (y =? 45)%N = false) by (unfold is_start_op, is_digit, is_word_start, is_alpha, in_range in Hy; lia).
  unfold compat. rewrite H. reflexivity.
Qed.

Lemma joint_chars a b : compat a b = true -> joint (N.eqb a) (N.eqb b).
Proof. intros H x y Hx Hy. apply N.eqb_eq in Hx, Hy. subst. exact H. Qed.

Lemma seg_then {P Q a Q' b} : Seg P Q a -> Seg safe2 Q' b -> Seg P Q' (a ++ b).
Proof. intros Ha Hb. exact (seg_app _ _ _ _ _ _ Ha Hb (joint_before Q)). Qed.

Lemma seg_single P Q p : piece_glue p None = true -> starts_in P (render_piece p) -> ends_in Q (render_piece p) -> Seg P Q [p].
Proof. intros Hg Hs He. unfold Seg. cbn [pieces_glue render flat_map first_of]. rewrite app_nil_r, Hg. auto. Qed.

Lemma atom_glue a : atom_wf a = true -> glue_atoms [a] None = true.
Proof. intros H. cbn [glue_atoms atoms_text flat_map first_of]. rewrite H. unfold atom_follow. destruct (last_char _); reflexivity. Qed.

Lemma seg_quoted (q : N) (p : piece) n : ((q =? 34)%N || (q =? 39)%N) = true -> piece_atoms p = Some [AQuo q n] -> render_piece p = quote_with q n ->
  Seg (N.eqb q) (N.eqb q) [p].
Proof.
  intros Hq Ha Hr. apply seg_single; [unfold piece_glue; rewrite Ha; apply atom_glue; exact Hq| |]; rewrite Hr.
  - rewrite quote_with_eq. apply N.eqb_refl.
  - unfold ends_in. rewrite quote_last. apply N.eqb_refl.
Qed.

Lemma seg_ident n : Seg (N.eqb 34) (N.eqb 34) [PIdent n].
Proof. apply (seg_quoted 34 (PIdent n) n); reflexivity. Qed.
Lemma seg_str v : Seg (N.eqb 39) (N.eqb 39) [PStr v].
Proof. apply (seg_quoted 39 (PStr v) v); reflexivity. Qed.

Lemma seg_num v : is_num_text v = true -> Seg is_digit (fun x => is_digit x || (x =? 46)%N) [PNum v].
Proof.
  intros Hv. apply seg_single; [apply (atom_glue (ANum v)); exact Hv| |]; cbn [render_piece].
  - unfold is_num_text in Hv. apply andb_prop in Hv as [Hv _]. apply andb_prop in Hv as [_ Hd]. destruct v; [discriminate|exact Hd].
  - destruct (num_last v Hv) as (x & El & Hx). unfold ends_in. rewrite El. exact Hx.
Qed.

Lemma seg_func n : is_word_text n = true -> Seg is_word_start is_word_char [PFunc n].
Proof.
  intros Hv. apply seg_single; [apply (atom_glue (AWord n)); exact Hv| |]; cbn [render_piece].
  - unfold is_word_text in Hv. destruct n; [discriminate|]. apply andb_prop in Hv as [Hc _]. exact Hc.
  - destruct (word_last n Hv) as (x & El & Hx). unfold ends_in. rewrite El. exact Hx.
Qed.

Lemma seg_end (P : N -> bool) c ps : Seg P (N.eqb c) ps -> is_end c = true -> Seg P is_end ps.
Proof. intros H Hc. eapply seg_weaken; [exact H|auto|]. intros x Hx. apply N.eqb_eq in Hx. subst x. exact Hc. Qed.
Lemma seg_start c (Q : N -> bool) (P' : N -> bool) ps : Seg (N.eqb c) Q ps -> P' c = true -> Seg P' Q ps.
Proof. intros H Hc. eapply seg_weaken; [exact H| |auto]. intros x Hx. apply N.eqb_eq in Hx. subst x. exact Hc. Qed.

Lemma ident_end n : Seg is_start_op is_end [PIdent n].
Proof. apply (seg_end _ 34); [apply (seg_start 34); [apply seg_ident|reflexivity]|reflexivity]. Qed.

(** [Seg] as a boolean: for closed literal text it is decided by evaluation (the [reflexivity]
    that closes a [segb _ _ l = true] premise below) *)
Definition segb (P Q : N -> bool) (l : list piece) : bool :=
  pieces_glue l None && match render l with c :: _ => P c | [] => false end
  && match last_char (render l) with Some x => Q x | None => false end.

Lemma segb_seg P Q l : segb P Q l = true -> Seg P Q l.
Proof.
  unfold segb, Seg, starts_in, ends_in. intros H. apply andb_prop in H as [H H3]. apply andb_prop in H as [H1 H2].
  destruct (render l); [discriminate|]. destruct (last_char _); [auto|discriminate].
Qed.

(** a boundary needs a [safe1] character on its left or a [safe2] one on its right *)
Lemma seg_pre {P} l {P' Q : N -> bool} {b} : segb P safe1 l = true -> Seg P' Q b -> Seg P Q (l ++ b).
Proof. intros Hl Hb. exact (seg_app _ _ _ _ _ _ (segb_seg _ _ _ Hl) Hb (joint_after P')). Qed.

Lemma seg_post {P Q a Q'} l : Seg P Q a -> segb safe2 Q' l = true -> Seg P Q' (a ++ l).
Proof. intros Ha Hl. exact (seg_then Ha (segb_seg _ _ _ Hl)). Qed.

Lemma seg_mid {P Q a} l {P' Q' : N -> bool} {b} : Seg P Q a -> segb safe2 safe1 l = true -> Seg P' Q' b -> Seg P Q' (a ++ l ++ b).
Proof. intros Ha Hl Hb. exact (seg_then Ha (seg_pre l Hl Hb)). Qed.

Lemma seg_wrap (P Q : N -> bool) b : Seg P Q b -> Seg is_start_op is_end (lit "(" ++ b ++ lit ")").
Proof. intros Hb. eapply seg_pre; [reflexivity|]. eapply seg_post; [exact Hb|reflexivity]. Qed.

(** an optional clause: nothing, or a segment *)
Definition Opt (P : N -> bool) (ps : list piece) : Prop := ps = [] \/ Seg P is_end ps.

Lemma opt_app (P : N -> bool) a ps : Seg P is_end a -> Opt safe2 ps -> Seg P is_end (a ++ ps).
Proof. intros Ha [->|Hs]; [rewrite app_nil_r; exact Ha|exact (seg_then Ha Hs)]. Qed.

Lemma opt_then ps (Q : N -> bool) b : Opt safe2 ps -> Seg safe2 Q b -> Seg safe2 Q (ps ++ b).
Proof. intros [->|Hs] Hb; [exact Hb|exact (seg_then Hs Hb)]. Qed.

Lemma opt_flat {X} (f : X -> list piece) l : Forall (fun x => Seg safe2 is_end (f x)) l -> Opt safe2 (flat_map f l).
Proof. induction 1 as [|x l Hx _ IH]; cbn [flat_map]; [left; reflexivity|right; apply opt_app; assumption]. Qed.

(** Literals and arguments alternate; a literal before an argument ends in a [safe1] character,
    a literal or separator after an argument starts with a [safe2] one.  The first literal starts
    in [P]; the last one ends like an expression. *)
Fixpoint tmpl_safe (P : N -> bool) (t : list tpart) : bool :=
  match t with
  | [] => true
  | T_Lit s :: r =>
    match r with
    | [] => segb P is_end [PLit s]
    | T_Arg _ _ :: _ => segb P safe1 [PLit s] && tmpl_safe P r
    | _ => false
    end
  | T_Arg _ _ :: r => match r with T_Arg _ _ :: _ => false | _ => tmpl_safe safe2 r end
  | T_Rest _ sep _ :: r => match r with [] => segb P safe1 [PLit sep] && segb safe2 safe1 [PLit sep] | _ => false end
  end.

(** what the instance of a template is, by the first part of the template *)
Definition Filled (P : N -> bool) (t : list tpart) (ps : list piece) : Prop :=
  match t with
  | [] => ps = []
  | T_Lit _ :: _ => Seg P is_end ps
  | T_Arg _ _ :: _ => Seg is_start is_end ps
  | T_Rest _ _ _ :: _ => Opt P ps
  end.

Lemma tinst_seg pas : forall t P, tmpl_safe P t = true -> Forall (part_reads (Seg is_start is_end) pas []) t -> Filled P t (tinst t pas).
Proof.
  induction t as [|p r IH]; intros P Hs Hr; [reflexivity|]. inversion Hr as [|? ? Hp Hr']; subst.
  destruct p as [s|mp i|j sep mp]; cbn [tmpl_safe] in Hs; cbn [tinst Filled part_reads] in *.
  - destruct r as [|[|mp i|] r']; try discriminate Hs; [apply segb_seg; exact Hs|].
    apply andb_prop in Hs as [Hl Hs]. exact (seg_pre [PLit s] Hl (IH P Hs Hr')).
  - destruct r as [|[s| |j sep mp'] r']; [rewrite app_nil_r; exact Hp| |discriminate|].
    + exact (seg_then Hp (IH safe2 Hs Hr')).
    + apply opt_app; [exact Hp|exact (IH safe2 Hs Hr')].
  - destruct r; [|discriminate]. apply andb_prop in Hs as [H1 H2]. cbn [tinst]. rewrite app_nil_r.
    destruct Hp as [|x l Hx Hl]; cbn [flat_map]; [left; reflexivity|right].
    apply opt_app; [exact (seg_pre [PLit sep] H1 Hx)|]. apply opt_flat.
    eapply Forall_impl; [|exact Hl]. intros a Ha. exact (seg_pre [PLit sep] H2 Ha).
Qed.

(** number literals are number spellings of the dialect, pass-through function names are words *)
Fixpoint lexok (e : expr) : Prop :=
  match e with
  | ELit _ k v => k = KNumber -> is_num_text v = true
  | ECall f _ args _ =>
    (known_func (iname f) = None -> is_word_text (iname f) = true) /\
    (fix all (l : list expr) : Prop := match l with [] => True | a :: r => lexok a /\ all r end) args
  | EBin x _ _ y => lexok x /\ lexok y
  | EUnary _ _ x | EParen _ x _ => lexok x
  | EIn x _ _ vs _ => lexok x /\ (fix all (l : list expr) : Prop := match l with [] => True | a :: r => lexok a /\ all r end) vs
  | EIndex x _ i _ => lexok x /\ lexok i
  | EQual _ => True
  end.

Lemma lexok_all l : (fix all (l : list expr) : Prop := match l with [] => True | a :: r => lexok a /\ all r end) l <-> Forall lexok l.
Proof. apply (fix_all_Forall lexok). Qed.

(** where an operand is wanted a written expression does not start with a sign *)
Definition ESeg (w : wrap) (ps : list piece) : Prop :=
  Seg (match w with WOperand => is_start_op | _ => is_start end) is_end ps.

Lemma eseg_any w ps : ESeg WOperand ps -> ESeg w ps.
Proof. intros H. destruct w; [exact (seg_op_start _ _ H)..|exact H]. Qed.

Lemma eseg_plain w ps : ESeg w ps -> Seg is_start is_end ps.
Proof. destruct w; [exact (fun H => H)..|apply seg_op_start]. Qed.

Lemma builtin_seg n sql : assoc_str builtin_idents n = Some sql -> Seg is_start_op is_end [PLit sql].
Proof.
  intros H. apply assoc_str_In in H. cbn [In map snd builtin_idents] in H.
  destruct H as [<-|[<-|[<-|[]]]]; apply segb_seg; reflexivity.
Qed.

Lemma write_parts_seg m : forall ps first pcs, ps <> [] -> write_parts m first ps = Ok pcs ->
  Seg (if first then N.eqb 34 else N.eqb 46) (N.eqb 34) pcs.
Proof.
  induction ps as [|p r IH]; intros first pcs Hne H; [congruence|]. cbn [write_parts] in H.
  destruct (ident_is_alias p && negb (mode_eqb m ModeJoin)); [discriminate|].
  apply bind_ok in H as (tl & Htl & [= <-]).
  assert (Hhead : Seg (if first then N.eqb 34 else N.eqb 46) (N.eqb 34) ((if first then [] else lit ".") ++ [PIdent (iname p)])).
  { destruct first; cbn [app]; [apply seg_ident|].
    eapply seg_app; [apply (segb_seg (N.eqb 46) (N.eqb 46)); reflexivity|apply seg_ident|apply joint_chars; reflexivity]. }
  destruct r as [|q r'].
  - cbn [write_parts] in Htl. injection Htl as <-. exact Hhead.
  - specialize (IH false tl ltac:(discriminate) Htl).
    replace ((if first then [] else lit ".") ++ PIdent (iname p) :: tl) with (((if first then [] else lit ".") ++ [PIdent (iname p)]) ++ tl)
      by (rewrite <- app_assoc; reflexivity).
    eapply seg_app; [exact Hhead|exact IH|apply joint_chars; reflexivity].
Qed.

Lemma seg_join : forall (pl : list (list piece)), pl <> [] -> Forall (Seg is_start is_end) pl ->
  Seg is_start is_end (join_pieces (lit ", ") pl).
Proof.
  induction pl as [|x r IH]; intros Hne Hall; [congruence|]. inversion Hall as [|? ? Hx Hr]; subst.
  destruct r as [|y r']; [exact Hx|]. cbn [join_pieces].
  eapply seg_mid; [exact Hx|reflexivity|]. apply IH; [discriminate|exact Hr].
Qed.

Definition anyc (c : N) : bool := true.
Lemma binop_seg op sqlop : binop_sql op = Some sqlop -> Seg anyc anyc [PLit sqlop].
Proof. destruct op; cbn [binop_sql]; intros [= <-]; unfold Seg; vm_compute; repeat split. Qed.

(** [e] signed or [complex] is wrapped where an operand is wanted; otherwise: *)
Definition opstart (e : expr) (b : list piece) : Prop :=
  match e with EUnary _ _ _ => True | _ => if complex e then True else Seg is_start_op is_end b end.

Lemma op_body e b : Seg is_start_op is_end b -> Seg is_start is_end b /\ opstart e b.
Proof.
  intros H. split; [exact (seg_op_start _ _ H)|].
  destruct e; cbn [opstart]; try exact I; (destruct (complex _); [exact I|exact H]).
Qed.

Lemma wrap_seg w e (body : res (list piece)) ps :
  wrapped (needs_wrap w e) body = Ok ps ->
  (forall b, body = Ok b -> Seg is_start is_end b /\ opstart e b) -> ESeg w ps.
Proof.
  unfold wrapped. intros H Hb. destruct (needs_wrap w e) eqn:En.
  - apply bind_ok in H as (b & Hbody & [= <-]). destruct (Hb b Hbody) as [Hs _].
    apply eseg_any. exact (seg_wrap _ _ _ Hs).
  - destruct (Hb ps H) as [Hs Ho]. destruct w; cbn [needs_wrap] in En; try exact Hs.
    unfold ESeg. unfold opstart in Ho. destruct e; try discriminate En; rewrite ?En in Ho; exact Ho.
Qed.
Section WriterGlue.
Variable c : ctx.
Hypothesis scope_glue : forall n v, scope_get (c_scope c) n = Some v -> Seg is_start_op is_end v.

Lemma Forall2_segs (w : wrap) : forall (l : list expr) pl,
  Forall (fun x => wfr x -> lexok x -> forall w ps, wx c w x = Ok ps -> ESeg w ps) l -> Forall wfr l -> Forall lexok l ->
  Forall2 (fun r x => r = Ok x) (map (wx c w) l) pl -> Forall (Seg is_start is_end) pl.
Proof.
  induction l as [|a r IH]; intros pl HI Hw Hl H2; cbn [map] in H2; inversion H2; subst; [constructor|].
  inversion HI; subst. inversion Hw; subst. inversion Hl; subst.
  constructor; [eapply eseg_plain; eauto|]. eapply IH; eassumption.
Qed.

Definition bin_safe (t : bin_tpl) : bool :=
  match bt_pre t with [] => true | l => segb is_start safe1 l end
  && segb safe2 safe1 (bt_mid t)
  && match bt_post t with [] => true | l => segb safe2 is_end l end.

Lemma bin_templates_safe :
  forallb (fun op => forallb (fun peq => match bin_template peq op with Some t => bin_safe t | None => true end) [true; false]) all_kinds = true.
Proof. vm_compute. reflexivity. Qed.

Lemma bin_template_safe peq op t : bin_template peq op = Some t -> bin_safe t = true.
Proof.
  intros E. pose proof bin_templates_safe as H. rewrite forallb_forall in H. specialize (H op (all_kinds_complete op)).
  rewrite forallb_forall in H. specialize (H peq). rewrite E in H. apply H. destruct peq; cbn [In]; auto.
Qed.

Lemma bin_seg t px py : bin_safe t = true -> Seg is_start is_end px -> Seg is_start is_end py -> Seg is_start is_end (bin_out t px py).
Proof.
  unfold bin_safe. intros H Hx Hy. apply andb_prop in H as [H Hpost]. apply andb_prop in H as [Hpre Hmid]. rewrite bin_out_eq.
  assert (Htail : Seg is_start is_end (px ++ bt_mid t ++ py ++ bt_post t)).
  { eapply seg_mid; [exact Hx|exact Hmid|]. destruct (bt_post t); [rewrite app_nil_r; exact Hy|exact (seg_post _ Hy Hpost)]. }
  destruct (bt_pre t); [exact Htail|exact (seg_pre _ Hpre Htail)].
Qed.

Definition arity_min (r : arity_rule) : nat := match r with ArityExactly k | ArityAtLeast k => k | ArityAny => 0 end.

Lemma arity_ok_min r n : arity_ok r n = true -> arity_min r <= n.
Proof. destruct r; cbn [arity_ok arity_min]; intros H; [apply Nat.eqb_eq in H|apply Nat.leb_le in H|]; lia. Qed.

(** the generated templates: safe, every argument they name exists once the arity test has passed,
    and one printed without parentheses as an operand starts with a word *)
Lemma known_templates_safe :
  forallb (fun nf => let '(w, np) := snd nf in
    tmpl_safe is_start_op (writer_template w)
    && forallb (fun p => match p with T_Arg _ i => i <? arity_min (writer_arity w) | _ => true end) (writer_template w)
    && match writer_template w with T_Lit _ :: _ => true | T_Arg _ _ :: _ => np | _ => false end) known_funcs = true.
Proof. vm_compute. reflexivity. Qed.

Lemma known_call_seg n wr np args b :
  known_func n = Some (wr, np) -> arity_ok (writer_arity wr) (length args) = true ->
  (forall a w pa, In a args -> wx c w a = Ok pa -> Seg is_start is_end pa) ->
  fill_template (writer_template wr) (wargs c (writer_template wr) 0 args) = Ok b ->
  Seg (if np then is_start else is_start_op) is_end b.
Proof.
  intros Ek Ea IHarg Hb. apply known_func_cases, in_map_iff in Ek as (nf & Enf & Hin).
  pose proof known_templates_safe as Ht. rewrite forallb_forall in Ht. specialize (Ht nf Hin). rewrite Enf in Ht.
  apply andb_prop in Ht as [Ht Hhd]. apply andb_prop in Ht as [Hsafe Hfit].
  apply fill_wargs_ok in Hb as (pas & Hpas & ->).
  assert (Hr : Forall (part_reads (Seg is_start is_end) pas []) (writer_template wr)).
  { apply (wargs_reads c _ args); [exact IHarg| |exact Hpas]. intros mp i Hi.
    rewrite forallb_forall in Hfit. specialize (Hfit _ Hi). apply Nat.ltb_lt in Hfit. apply arity_ok_min in Ea. lia. }
  pose proof (tinst_seg pas _ _ Hsafe Hr) as Hf.
  destruct (writer_template wr) as [|[s|mp i|j sep mp] r]; try discriminate Hhd; cbn [Filled] in Hf.
  - destruct np; [exact (seg_op_start _ _ Hf)|exact Hf].
  - rewrite Hhd. exact Hf.
Qed.

Theorem wx_glue : forall e, wfr e -> lexok e -> forall w ps, wx c w e = Ok ps -> ESeg w ps.
Proof.
  induction e using expr_ind'; intros Hwf Hlx w pcs Hx.
  -
    cbn [wfr] in Hwf. rewrite wx_qual in Hx. unfold unbound_qual in Hx.
    eapply (wrap_seg w (EQual ps)); [rewrite needs_wrap_qual; exact Hx|]. clear Hx. intros b Hb.
    apply op_body.
    assert (Hgen : write_parts (c_mode c) true ps = Ok b -> Seg is_start_op is_end b).
    { intros Hg. pose proof (write_parts_seg (c_mode c) ps true b Hwf Hg) as Hs.
      apply (seg_end _ 34); [apply (seg_start 34); [exact Hs|reflexivity]|reflexivity]. }
    destruct ps as [|p [|p2 r]]; [congruence| |].
    + destruct (negb (iquoted p)).
      * destruct (scope_get (c_scope c) (iname p)) as [sql|] eqn:Es.
        { injection Hb as <-. eapply scope_glue. exact Es. }
        destruct (assoc_str builtin_idents (iname p)) as [sql|] eqn:Eb.
        { injection Hb as <-. eapply builtin_seg. exact Eb. }
        destruct (mode_eqb (c_mode c) ModeLet); [discriminate|apply Hgen; exact Hb].
      * destruct (mode_eqb (c_mode c) ModeLet); [discriminate|apply Hgen; exact Hb].
    + destruct (mode_eqb (c_mode c) ModeLet); [discriminate|apply Hgen; exact Hb].
  -
    cbn [wfr] in Hwf. destruct Hwf as (Hop & Hnin & Hw1 & Hw2). cbn [lexok] in Hlx. destruct Hlx as [Hl1 Hl2].
    rewrite wx_bin in Hx. eapply wrap_seg; [exact Hx|]. clear Hx. intros b Hb.
    cbn [opstart complex]. split; [|exact I].
    destruct (bin_template_handled (plain_eq c e1 e2) op Hop Hnin) as (t & Et). rewrite Et in Hb.
    apply bind_ok in Hb as (px & Hpx & Hb). apply bind_ok in Hb as (py & Hpy & [= <-]).
    apply bin_seg; [exact (bin_template_safe _ _ _ Et)|exact (eseg_plain _ _ (IHe1 Hw1 Hl1 _ _ Hpx))|exact (eseg_plain _ _ (IHe2 Hw2 Hl2 _ _ Hpy))].
  -
    cbn [wfr] in Hwf. destruct Hwf as (Hop & Hw1). cbn [lexok] in Hlx.
    rewrite wx_unary in Hx. eapply wrap_seg; [exact Hx|]. clear Hx. intros b Hb. cbn [opstart]. split; [|exact I].
    apply bind_ok in Hb as (px & Hpx & Hb). pose proof (IHe Hw1 Hlx WOperand px Hpx) as Hs. unfold ESeg in Hs.
    destruct Hop as [-> | ->]; injection Hb as <-.
    + eapply (seg_pre (lit "+")); [reflexivity|exact Hs].
    + (* [-] must not meet a second one *)
      eapply (seg_app _ _ _ _ (lit "-")); [apply (segb_seg is_start (N.eqb 45)); reflexivity|exact Hs|apply joint_minus_op].
  -
    cbn [wfr] in Hwf. destruct Hwf as (Hw1 & Hne & Hall). apply wfr_all in Hall. cbn [lexok] in Hlx. destruct Hlx as [Hl1 Hlv]. apply lexok_all in Hlv.
    rewrite wx_in in Hx. eapply wrap_seg; [exact Hx|]. clear Hx. intros b Hb. cbn [opstart complex]. split; [|exact I].
    apply bind_ok in Hb as (px & Hpx & Hb). apply bind_ok in Hb as (pvs & Hpvs & [= <-]).
    pose proof (eseg_plain _ _ (IHe Hw1 Hl1 WMaybe px Hpx)) as Hsx.
    apply sequence_ok in Hpvs. pose proof (Forall2_segs WMaybe vs pvs H Hall Hlv Hpvs) as Hsl.
    assert (Hpne : pvs <> []) by (intros ->; inversion Hpvs as [E|]; destruct vs; [congruence|discriminate]).
    eapply (seg_mid [PLit _]); [exact Hsx|reflexivity|]. eapply seg_post; [apply seg_join; assumption|reflexivity].
  - cbn [wfr] in Hwf. cbn [lexok] in Hlx. rewrite wx_paren in Hx. apply IHe; assumption.
  -
    cbn [wfr] in Hwf. cbn [lexok] in Hlx. rewrite wx_lit in Hx.
    eapply (wrap_seg w (ELit vs k v)); [rewrite needs_wrap_lit; exact Hx|]. clear Hx. intros b Hb.
    destruct Hwf as [-> | ->]; injection Hb as <-; apply op_body.
    + eapply seg_weaken; [apply seg_num; apply Hlx; reflexivity| |].
      * intros x Hd. unfold is_start_op. rewrite Hd. rewrite !Bool.orb_true_r. reflexivity.
      * intros x Hd. unfold is_end, is_word_char. apply Bool.orb_true_iff in Hd as [Hd|Hd]; rewrite Hd; rewrite ?Bool.orb_true_r; reflexivity.
    + apply (seg_end _ 39); [apply (seg_start 39); [apply seg_str|reflexivity]|reflexivity].
  -
    cbn [wfr] in Hwf. destruct Hwf as (Hname & Hall). apply wfr_all in Hall. cbn [lexok] in Hlx. destruct Hlx as [Hlname Hlargs]. apply lexok_all in Hlargs.
    rewrite wx_call in Hx. eapply wrap_seg; [exact Hx|]. clear Hx. intros b Hb.
    assert (IHarg : forall a w pa, In a args -> wx c w a = Ok pa -> Seg is_start is_end pa).
    { intros a w0 pa Hin Hpa. rewrite Forall_forall in H, Hall, Hlargs. eapply eseg_plain. apply (H a Hin (Hall a Hin) (Hlargs a Hin) w0 pa Hpa). }
    destruct (known_func (iname f)) as [[wr np]|] eqn:Ek.
    + destruct (arity_ok (writer_arity wr) (length args)) eqn:Ea; cbn [negb] in Hb; [|discriminate].
      pose proof (known_call_seg _ _ _ _ _ Ek Ea IHarg Hb) as Hs.
      destruct np; [|exact (op_body _ _ Hs)]. split; [exact Hs|]. cbn [opstart complex]. rewrite Ek. exact I.
    +
      specialize (Hlname eq_refl).
      apply bind_ok in Hb as (pargs & Hpargs & [= <-]). apply sequence_ok in Hpargs.
      pose proof (Forall2_segs WPlain args pargs H Hall Hlargs Hpargs) as Hsl.
      assert (Hs : Seg is_word_start is_end (PFunc (iname f) :: lit "(" ++ join_pieces (lit ", ") pargs ++ lit ")")).
      { eapply (@seg_then _ _ [PFunc (iname f)]); [apply seg_func; exact Hlname|].
        destruct pargs as [|p0 pr]; [apply segb_seg; reflexivity|].
        eapply (seg_pre [PLit _]); [reflexivity|]. eapply seg_post; [apply seg_join; [discriminate|exact Hsl]|reflexivity]. }
      apply op_body. eapply seg_weaken; [exact Hs| |auto]. intros x Hx0. unfold is_start_op. rewrite Hx0. rewrite !Bool.orb_true_r. reflexivity.
  -
    cbn [wfr] in Hwf. destruct Hwf as (Hw1 & Hw2). cbn [lexok] in Hlx. destruct Hlx as [Hl1 Hl2].
    rewrite wx_index in Hx. eapply wrap_seg; [exact Hx|]. clear Hx. intros b Hb. cbn [opstart complex]. split; [|exact I].
    apply bind_ok in Hb as (px & Hpx & Hb). apply bind_ok in Hb as (pi & Hpi & [= <-]).
    pose proof (eseg_plain _ _ (IHe1 Hw1 Hl1 WOperand px Hpx)) as Hsx. pose proof (eseg_plain _ _ (IHe2 Hw2 Hl2 WPlain pi Hpi)) as Hsi.
    eapply (seg_mid [PLit _]); [exact Hsx|reflexivity|]. eapply seg_post; [exact Hsi|reflexivity].
Qed.
End WriterGlue.

Section StmtGlue.
Variable source : str.
Variable sc : scope.
Hypothesis scope_glue : forall n v, scope_get sc n = Some v -> Seg is_start_op is_end v.
Let c := mkCtx sc ModeDefault.

Definition wl (e : expr) : Prop := wfr e /\ lexok e.

Lemma wexpr_seg m e ps : wl e -> wx (mkCtx sc m) WPlain e = Ok ps -> Seg is_start is_end ps.
Proof. intros [Hw Hl] H. eapply eseg_plain. eapply (wx_glue (mkCtx sc m)); [exact scope_glue|exact Hw|exact Hl|exact H]. Qed.

Definition src_glue (s : ssource) : Prop :=
  match s with
  | SrcName _ => True
  | SrcJoin _ _ _ _ cond ps => wl cond /\ wx (mkCtx sc ModeJoin) WPlain cond = Ok ps
  end.

Lemma source_seg s : src_glue s -> Seg is_start_op is_end (render_source s).
Proof.
  destruct s as [n|u l o r cond ps]; cbn [src_glue render_source]; [intros _; apply ident_end|].
  intros [Hwl Hx]. pose proof (wexpr_seg ModeJoin cond ps Hwl Hx) as Hc.
  assert (T : Seg safe2 is_end (lit " AS ""$left""" ++ (if o then lit " LEFT JOIN " else lit " JOIN ") ++ [PIdent r] ++ lit " AS ""$right"" ON " ++ ps)).
  { eapply (seg_then (Q := is_end)); [apply segb_seg; reflexivity|].
    destruct o; (eapply seg_pre; [reflexivity|]); (eapply seg_then; [apply ident_end|]); (eapply seg_pre; [reflexivity|exact Hc]). }
  destruct u; [eapply seg_pre; [reflexivity|]|]; (eapply (@seg_then _ _ [PIdent l]); [apply ident_end|]); [eapply (@seg_pre safe2); [reflexivity|exact T]|exact T].
Qed.

Lemma seq_segs {X} (f : X -> res (list piece)) (P : X -> Prop) : forall l pl,
  Forall P l -> (forall x p, P x -> f x = Ok p -> Seg is_start is_end p) ->
  sequence (map f l) = Ok pl -> Forall (Seg is_start is_end) pl.
Proof.
  induction l as [|x l IH]; intros pl HP Hf Hs; cbn [map sequence] in Hs.
  - injection Hs as <-. constructor.
  - apply bind_ok in Hs as (p & Hp & Hs). apply bind_ok in Hs as (tl & Htl & [= <-]).
    inversion HP; subst. constructor; [eapply Hf; eassumption|]. eapply IH; eassumption.
Qed.

Definition op_glue (o : option operator) : Prop :=
  match o with
  | None | Some (OAs _ _ _) | Some (OCount _ _) | Some (ORender _ _ _ _ _ _ _) => True
  | Some (OProject _ _ cols) => cols <> [] /\ Forall (fun col => match pc_x col with Some x => wl x | None => True end) cols
  | Some (OExtend _ _ cols) => Forall (fun col => wl (ec_x col)) cols
  | Some (OSummarize _ _ cols _ groupby) => (cols <> [] \/ groupby <> []) /\ Forall (fun col => wl (ec_x col)) cols /\ Forall (fun col => wl (ec_x col)) groupby
  | Some (OWhere _ _ p) => wl p
  | Some _ => False
  end.

Definition subq_glue (s : subq) : Prop :=
  op_glue (sq_op s) /\ src_glue (sq_source s) /\
  match sq_sort s with Some terms => terms <> [] /\ Forall (fun t => wl (st_x t)) terms | None => True end /\
  match sq_take s with Some n => wl n | None => True end.

Lemma ext_cols_segs cols cs : Forall (fun col => wl (ec_x col)) cols -> write_ext_cols source c cols = Ok cs -> Forall (Seg is_start is_end) cs.
Proof.
  intros Hall H. unfold write_ext_cols in H. eapply (seq_segs _ (fun col => wl (ec_x col))); [exact Hall| |exact H].
  intros col p Hw Hp. apply bind_ok in Hp as (px & Hpx & [= <-]). unfold col_alias.
  eapply seg_mid; [exact (wexpr_seg ModeDefault _ _ Hw Hpx)|reflexivity|apply ident_end].
Qed.

Lemma segs_nonempty_map {X} (f : X -> res (list piece)) l pl : sequence (map f l) = Ok pl -> l <> [] -> pl <> [].
Proof. destruct l; [congruence|]. cbn [map sequence]. intros H _. apply bind_ok in H as (p & _ & H). apply bind_ok in H as (tl & _ & [= <-]). discriminate. Qed.

Lemma sort_opt s ps : match sq_sort s with Some terms => terms <> [] /\ Forall (fun t => wl (st_x t)) terms | None => True end ->
  subq_sort c s = Ok ps -> Opt safe2 ps.
Proof.
  unfold subq_sort, write_sort. destruct (sq_sort s) as [terms|]; intros Hw H; [|injection H as <-; left; reflexivity].
  destruct Hw as [Hne Hall]. apply bind_ok in H as (ts & Hts & [= <-]). right.
  eapply (seg_pre [PLit _]); [reflexivity|]. apply seg_join; [eapply segs_nonempty_map; eassumption|].
  eapply (seq_segs _ (fun t => wl (st_x t))); [exact Hall| |exact Hts].
  intros t p Hwt Hp. apply bind_ok in Hp as (px & Hpx & [= <-]).
  eapply (seg_then (wexpr_seg ModeDefault _ _ Hwt Hpx)). destruct (st_asc t), (st_nullsfirst t); apply segb_seg; reflexivity.
Qed.

Lemma take_opt s ps : match sq_take s with Some n => wl n | None => True end -> subq_take c s = Ok ps -> Opt safe2 ps.
Proof.
  unfold subq_take. destruct (sq_take s) as [n|]; intros Hw H; [|injection H as <-; left; reflexivity].
  apply bind_ok in H as (pn & Hpn & [= <-]). right. eapply (seg_pre [PLit _]); [reflexivity|exact (wexpr_seg ModeDefault _ _ Hw Hpn)].
Qed.

Lemma body_seg s b : op_glue (sq_op s) -> src_glue (sq_source s) -> subq_body source c s = Ok b -> Seg (N.eqb 83) is_end b.
Proof.
  intros Hop Hsrc Hb. pose proof (source_seg _ Hsrc) as Hss. unfold subq_body in Hb.
  assert (Hfrom : Seg safe2 is_end (lit " FROM " ++ render_source (sq_source s))) by (eapply (seg_pre [PLit _]); [reflexivity|exact Hss]).
  destruct (sq_op s) as [o|]; [|injection Hb as <-; eapply (seg_pre [PLit _]); [reflexivity|exact Hss]].
  destruct o; cbn [op_glue] in Hop; try contradiction.
  - injection Hb as <-. eapply (seg_pre [PLit _]); [reflexivity|exact Hss].
  - apply bind_ok in Hb as (px & Hpx & [= <-]).
    eapply (seg_pre [PLit _]); [reflexivity|]. eapply (seg_mid [PLit _]); [exact Hss|reflexivity|exact (wexpr_seg ModeDefault _ _ Hop Hpx)].
  - destruct Hop as [Hne Hall]. apply bind_ok in Hb as (cs & Hcs & [= <-]).
    eapply (seg_pre [PLit _]); [reflexivity|]. eapply seg_then; [|exact Hfrom]. apply seg_join; [eapply segs_nonempty_map; eassumption|].
    eapply (seq_segs _ (fun col => match pc_x col with Some x => wl x | None => True end)); [exact Hall| |exact Hcs].
    intros col p Hw Hp. apply bind_ok in Hp as (px & Hpx & [= <-]). eapply (seg_mid [PLit _]); [|reflexivity|apply ident_end].
    destruct (pc_x col) as [x|]; [exact (wexpr_seg ModeDefault _ _ Hw Hpx)|].
    apply (wexpr_seg ModeDefault (EQual [pc_name col]) px); [split; [discriminate|exact I]|exact Hpx].
  - apply bind_ok in Hb as (cs & Hcs & [= <-]).
    eapply (seg_pre [PLit _]); [reflexivity|]. apply opt_then; [|exact Hfrom]. apply opt_flat.
    eapply Forall_impl; [|exact (ext_cols_segs _ _ Hop Hcs)]. intros x Hx. eapply (seg_pre [PLit _]); [reflexivity|exact Hx].
  - destruct Hop as (Hne & Hc & Hg).
    apply bind_ok in Hb as (gs & Hgs & Hb). apply bind_ok in Hb as (cs & Hcs & Hb). apply bind_ok in Hb as (gb & Hgb & [= <-]).
    eapply (seg_pre [PLit _]); [reflexivity|]. eapply (seg_mid [PLit _]); [|reflexivity|apply opt_app; [exact Hss|]].
    + apply seg_join; [|apply Forall_app; split; [exact (ext_cols_segs _ _ Hg Hgs)|exact (ext_cols_segs _ _ Hc Hcs)]].
      unfold write_ext_cols in Hgs, Hcs. intros E. apply app_eq_nil in E as [-> ->].
      destruct Hne as [Hne|Hne]; [exact (segs_nonempty_map _ _ _ Hcs Hne eq_refl)|exact (segs_nonempty_map _ _ _ Hgs Hne eq_refl)].
    + destruct groupby as [|g0 gr]; [injection Hgb as <-; left; reflexivity|].
      apply bind_ok in Hgb as (ks & Hks & [= <-]). right.
      eapply (seg_pre [PLit _]); [reflexivity|]. apply seg_join; [eapply segs_nonempty_map; [exact Hks|discriminate]|].
      eapply (seq_segs _ (fun col => wl (ec_x col))); [exact Hg| |exact Hks]. intros col p Hw Hp. exact (wexpr_seg ModeDefault _ _ Hw Hp).
  - injection Hb as <-. eapply (seg_pre [PLit _]); [reflexivity|exact Hss].
  - injection Hb as <-.
    eapply (seg_pre [PLit _]); [reflexivity|]. eapply (@seg_then _ _ [PStr _]); [apply seg_str|].
    eapply (@seg_then _ is_end [PLit _]); [apply segb_seg; reflexivity|]. apply opt_then; [|eapply (seg_pre [PLit _]); [reflexivity|exact Hss]].
    apply opt_flat, Forall_forall. intros p _.
    eapply (seg_pre [PLit _]); [reflexivity|]. eapply (@seg_then _ _ [PStr _]); [apply seg_str|]. eapply (seg_pre [PLit _]); [reflexivity|apply ident_end].
Qed.

Theorem write_subq_seg s ps : subq_glue s -> write_subq source c s = Ok ps -> Seg (N.eqb 83) is_end ps.
Proof.
  intros (Hop & Hsrc & Hsort & Htake) H. rewrite write_subq_eq in H.
  apply bind_ok in H as (body & Hbody & H). apply bind_ok in H as (srt & Hsrt & H). apply bind_ok in H as (tk & Htk & [= <-]).
  rewrite app_assoc. apply opt_app; [apply opt_app; [exact (body_seg s body Hop Hsrc Hbody)|exact (sort_opt s srt Hsort Hsrt)]|exact (take_opt s tk Htake Htk)].
Qed.

Lemma ctes_seg : forall ctes w, Forall subq_glue ctes -> write_ctes source c ctes = Ok w ->
  (ctes = [] /\ w = []) \/ Seg (N.eqb 34) (N.eqb 10) w.
Proof.
  induction ctes as [|s r IH]; intros w Hall H; cbn [write_ctes] in H.
  - injection H as <-. left. split; reflexivity.
  - right. inversion Hall as [|? ? Hs Hr]; subst.
    apply bind_ok in H as (body & Hbody & H). apply bind_ok in H as (tl & Htl & [= <-]).
    eapply (@seg_then _ _ [PIdent _]); [apply seg_ident|]. eapply (seg_pre [PLit _]); [reflexivity|]. eapply seg_then; [exact (write_subq_seg s body Hs Hbody)|].
    destruct r as [|s2 r2]; [injection Htl as <-; apply segb_seg; reflexivity|].
    destruct (IH tl Hr Htl) as [[E _]|Htls]; [discriminate E|].
    eapply (seg_pre [PLit _]); [reflexivity|]. eapply (@seg_pre safe2 [PLit _]); [reflexivity|exact Htls].
Qed.

Theorem statement_glue ctes q w body : Forall subq_glue ctes -> subq_glue q ->
  write_ctes source c ctes = Ok w -> write_subq source c q = Ok body ->
  glue_ok ((match ctes with [] => [] | _ => lit "WITH " end) ++ w ++ body ++ lit ";") = true.
Proof.
  intros Hc Hq Hw Hb.
  assert (Hend : Seg (N.eqb 83) safe2 (body ++ lit ";")) by (eapply seg_post; [exact (write_subq_seg q body Hq Hb)|reflexivity]).
  destruct (ctes_seg ctes w Hc Hw) as [(-> & ->)|Hws]; [exact (proj1 Hend)|].
  destruct ctes as [|s0 r0]; [injection Hw as <-; destruct Hws as (_ & Hf & _); contradiction|].
  refine (proj1 (@seg_pre is_start (lit "WITH ") _ _ _ eq_refl _)).
  eapply seg_app; [exact Hws|exact Hend|]. intros x y Hx _. apply N.eqb_eq in Hx. subst x. apply compat_safe1. reflexivity.
Qed.
End StmtGlue.
