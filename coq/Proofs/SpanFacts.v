(** C10: for a tree that represents a token sequence in order ([toks_within], which [scan] guarantees),
    the span computed by the Span() methods, the unions of the generated table [span_parts], is
    (start of the first token, end of the last token). *)
From PQL Require Import Spec.FlattenStmt Proofs.LexerFacts Proofs.ParserFacts Proofs.ParserSoundStmt Proofs.ParserReject.
From Coq Require Import Lia.
Local Open Scope list_scope.
Local Open Scope nat_scope.

Definition lo_of (ts : list token) : nat := match ts with t :: _ => tstart t | [] => 0 end.
Definition hi_of (ts : list token) : nat := match ts with t :: r => tend (last r t) | [] => 0 end.
Definition ext (ts : list token) : span := match ts with [] => None | _ => Some (lo_of ts, hi_of ts) end.

Definition inside (lo hi : nat) (sp : span) : Prop :=
  match sp with None => True | Some (a, b) => lo <= a /\ a <= b /\ b <= hi end.

Lemma union2_inside lo hi u s : inside lo hi u -> inside lo hi s -> inside lo hi (union2 u s).
Proof.
  destruct u as [[ua ub]|], s as [[a b]|]; cbn; intros Hu Hs; try assumption.
  - destruct (Nat.leb_spec a b); [|exact Hu]. destruct (Nat.leb_spec ua ub); [|exact Hs]. cbn. lia.
  - destruct (Nat.leb_spec a b); [exact Hs|exact I].
Qed.

Lemma fold_union_inside lo hi : forall L acc, inside lo hi acc -> Forall (inside lo hi) L -> inside lo hi (fold_left union2 L acc).
Proof.
  induction L as [|s r IH]; intros acc Ha HL; cbn [fold_left]; [exact Ha|].
  inversion HL; subst. apply IH; [apply union2_inside; assumption|assumption].
Qed.

Lemma union_spans_inside lo hi L : Forall (inside lo hi) L -> inside lo hi (union_spans L).
Proof. intros. apply fold_union_inside; [exact I|assumption]. Qed.

Lemma valid_inv s : span_valid s = true -> exists a b, s = Some (a, b) /\ a <= b.
Proof. destruct s as [[a b]|]; [|discriminate]. cbn. intros H. exists a, b. split; [reflexivity|apply Nat.leb_le, H]. Qed.

Lemma union2_hull a b c d : a <= b -> c <= d -> union2 (Some (a, b)) (Some (c, d)) = Some (Nat.min a c, Nat.max b d).
Proof. intros H1 H2. apply Nat.leb_le in H1, H2. cbn. rewrite H1, H2. reflexivity. Qed.

Lemma union2_skip u s : span_valid s = false -> union2 u s = u.
Proof. destruct s as [[a b]|]; cbn; [intros ->|]; reflexivity. Qed.

Lemma union2_None s : span_valid s = true -> union2 None s = s.
Proof. destruct s as [[a b]|]; cbn; [intros ->; reflexivity|discriminate]. Qed.

Lemma union2_assoc u s x : span_valid u = true -> span_valid s = true ->
  union2 (union2 u s) x = union2 u (union2 s x) /\ span_valid (union2 u s) = true.
Proof.
  intros Hu Hs. destruct (valid_inv _ Hu) as (a & b & -> & Hab), (valid_inv _ Hs) as (c & d & -> & Hcd).
  rewrite union2_hull by assumption. split; [|apply Nat.leb_le; lia].
  destruct (span_valid x) eqn:Hx.
  - destruct (valid_inv _ Hx) as (e & f & -> & Hef). rewrite !union2_hull by lia.
    rewrite Nat.min_assoc, Nat.max_assoc. reflexivity.
  - rewrite !(union2_skip _ x Hx). symmetry. apply union2_hull; assumption.
Qed.

Lemma fold_union2 L : forall u, span_valid u = true -> fold_left union2 L u = union2 u (union_spans L).
Proof.
  induction L as [|s L IH]; intros u Hu; [reflexivity|]. unfold union_spans. cbn [fold_left].
  destruct (span_valid s) eqn:Hs.
  - destruct (union2_assoc u s (union_spans L) Hu Hs) as [E V].
    rewrite (union2_None s Hs), (IH _ V), (IH _ Hs). exact E.
  - rewrite !(union2_skip _ s Hs). exact (IH u Hu).
Qed.

Lemma union_spans_cons s L : span_valid s = true -> union_spans (s :: L) = union2 s (union_spans L).
Proof. intros Hs. unfold union_spans at 1. cbn [fold_left]. rewrite (union2_None s Hs). apply fold_union2, Hs. Qed.

Lemma union_spans_app L1 L2 : span_valid (union_spans L1) = true ->
  union_spans (L1 ++ L2) = union2 (union_spans L1) (union_spans L2).
Proof. intros H. unfold union_spans at 1. rewrite fold_left_app. apply fold_union2, H. Qed.

Lemma within_app a : forall b lo hi, toks_within lo hi (a ++ b) -> toks_within lo hi a /\ toks_within lo hi b.
Proof.
  induction a as [|t a IH]; intros b lo hi W; cbn [app] in W.
  - split; [constructor; exact (toks_within_le _ _ _ W)|exact W].
  - inversion W as [|lo1 hi1 t1 ts1 H1 H2 H3 W']; subst.
    destruct (IH b (tend t) hi W') as [Wa Wb]. split; [constructor; assumption|].
    eapply toks_within_weaken; [|exact Wb]. lia.
Qed.

Lemma last_indep {A} (l : list A) d d' : l <> [] -> last l d = last l d'.
Proof. induction l as [|x l IH]; [congruence|]. intros _. destruct l as [|y l]; [reflexivity|]. cbn [last] in *. apply IH. discriminate. Qed.

Lemma last_cons_ne {A} (x : A) l d : l <> [] -> last (x :: l) d = last l d.
Proof. destruct l; [congruence|reflexivity]. Qed.

Lemma hi_of_cons t r : r <> [] -> hi_of (t :: r) = hi_of r.
Proof.
  destruct r as [|t2 r']; [congruence|]. intros _. unfold hi_of. f_equal.
  destruct r' as [|t3 r'']; [reflexivity|]. rewrite last_cons_ne by discriminate. apply last_indep. discriminate.
Qed.

Lemma within_app_strong a : forall b lo hi, toks_within lo hi (a ++ b) -> a <> [] -> toks_within lo (hi_of a) a /\ toks_within (hi_of a) hi b.
Proof.
  induction a as [|t a IH]; intros b lo hi W Hne; [congruence|]. cbn [app] in W.
  inversion W as [|lo1 hi1 t1 ts1 H1 H2 H3 W']; subst.
  destruct a as [|t2 a'].
  - cbn [app] in W'. cbn [hi_of last]. split; [|exact W']. constructor; try lia. constructor. lia.
  - destruct (IH b (tend t) hi W' ltac:(discriminate)) as [Wa Wb]. rewrite hi_of_cons by discriminate. split; [|exact Wb].
    constructor; try lia; [|exact Wa]. pose proof (toks_within_le _ _ _ Wa). lia.
Qed.

Lemma within_lower_hi lo hi ts : toks_within lo hi ts -> ts <> [] -> toks_within lo (hi_of ts) ts /\ hi_of ts <= hi.
Proof.
  intros W Hne. rewrite <- (app_nil_r ts) in W. destruct (within_app_strong _ _ _ _ W Hne) as [Wa Wb].
  split; [exact Wa|exact (toks_within_le _ _ _ Wb)].
Qed.

Lemma within_tight lo hi ts : toks_within lo hi ts -> ts <> [] -> toks_within (lo_of ts) (hi_of ts) ts.
Proof.
  intros W Hne. destruct (within_lower_hi _ _ _ W Hne) as [W' _].
  destruct ts as [|t r]; [congruence|]. cbn [lo_of]. inversion W'; subst. constructor; try lia. assumption.
Qed.

Lemma ext_inside lo hi ts : toks_within lo hi ts -> inside lo hi (ext ts).
Proof.
  intros W. destruct ts as [|t r] eqn:E; [exact I|]. rewrite <- E in *. assert (Hne : ts <> []) by (subst; discriminate).
  destruct (within_lower_hi _ _ _ W Hne) as [W' Hhi].
  assert (ext ts = Some (lo_of ts, hi_of ts)) as -> by (subst; reflexivity).
  cbn [inside]. subst ts. cbn [lo_of]. inversion W' as [|lo1 hi1 t1 ts1 G1 G2 G3 G4]; subst. pose proof (toks_within_le _ _ _ G4). repeat split; lia.
Qed.

Lemma lo_of_app a b : a <> [] -> lo_of (a ++ b) = lo_of a.
Proof. destruct a; [congruence|reflexivity]. Qed.

Lemma hi_of_app a b : b <> [] -> hi_of (a ++ b) = hi_of b.
Proof.
  intros Hb. induction a as [|x a IH]; [reflexivity|]. cbn [app]. rewrite hi_of_cons; [exact IH|].
  destruct a; [exact Hb|discriminate].
Qed.

Lemma ext_some ts : ts <> [] -> ext ts = Some (lo_of ts, hi_of ts).
Proof. destruct ts; [congruence|reflexivity]. Qed.

Lemma within_single lo hi t r : toks_within lo hi (t :: r) -> toks_within lo hi [t] /\ toks_within lo hi r.
Proof. apply (within_app [t] r). Qed.

Lemma valid_of_inside lo hi sp : inside lo hi sp -> sp <> None -> span_valid sp = true.
Proof. destruct sp as [[a b]|]; [|congruence]. cbn. intros (H1 & H2 & H3) _. apply Nat.leb_le. exact H2. Qed.

Lemma ext_valid lo hi ts : toks_within lo hi ts -> ts <> [] -> span_valid (ext ts) = true.
Proof. intros W Hne. eapply valid_of_inside; [apply ext_inside; exact W|]. rewrite ext_some by assumption. discriminate. Qed.

(** [g]: tokens between the two runs that belong to neither *)
Lemma union2_ext_gap lo hi a g b : toks_within lo hi (a ++ g ++ b) -> a <> [] -> (b = [] -> g = []) ->
  union2 (ext a) (ext b) = ext (a ++ g ++ b).
Proof.
  intros W Ha Hg. destruct b as [|t b]; [rewrite (Hg eq_refl), !app_nil_r; reflexivity|].
  assert (Hb : t :: b <> []) by discriminate.
  destruct (within_app_strong _ _ _ _ W Ha) as [Wa Wgb]. destruct (within_app _ _ _ _ Wgb) as [_ Wb].
  pose proof (ext_inside _ _ _ Wa) as Ia. pose proof (ext_inside _ _ _ Wb) as Ib.
  rewrite (ext_some (a ++ g ++ t :: b)) by (apply app_nonempty_l, Ha).
  rewrite lo_of_app, !hi_of_app by (assumption || apply app_nonempty_r, Hb).
  rewrite (ext_some a Ha), (ext_some _ Hb) in *. cbn [inside] in Ia, Ib.
  rewrite union2_hull by lia. f_equal. f_equal; lia.
Qed.

Lemma union2_ext lo hi a b : toks_within lo hi (a ++ b) -> union2 (ext a) (ext b) = ext (a ++ b).
Proof.
  intros W. destruct a as [|t a]; [|apply (union2_ext_gap lo hi _ [] _ W); [discriminate|reflexivity]].
  destruct b; [reflexivity|]. apply union2_None. eapply ext_valid; [exact W|discriminate].
Qed.

(** A node's token list is cut into pieces, one per part of [span_parts], each part's span being the
    extent of its piece.  [glue] ends in its last piece, not in [++ []], so that [glue [a; [t]; b]] is
    convertible with [a ++ t :: b], the shape the flattening relations give. *)
Fixpoint glue (tss : list (list token)) : list token :=
  match tss with
  | [] => []
  | p :: r => match r with [] => p | _ :: _ => p ++ glue r end
  end.

Lemma glue_cons p r : glue (p :: r) = p ++ glue r.
Proof. destruct r; [symmetry; apply app_nil_r|reflexivity]. Qed.

Lemma within_pieces lo hi tss : toks_within lo hi (glue tss) -> Forall (toks_within lo hi) tss.
Proof.
  induction tss as [|p tss IH]; [constructor|]. rewrite glue_cons. intros W.
  destruct (within_app _ _ _ _ W). constructor; auto.
Qed.

Theorem union_exts lo hi tss : toks_within lo hi (glue tss) -> union_spans (map ext tss) = ext (glue tss).
Proof.
  induction tss as [|p tss IH]; [reflexivity|]. rewrite glue_cons. intros W.
  destruct (within_app _ _ _ _ W) as [Wp Wr]. cbn [map].
  destruct p as [|t p]; [exact (IH Wr)|].
  rewrite union_spans_cons by (eapply ext_valid; [exact Wp|discriminate]).
  rewrite (IH Wr). exact (union2_ext _ _ _ _ W).
Qed.

Definition is_ext (lo hi : nat) (sp : span) (p : list token) : Prop := toks_within lo hi p -> sp = ext p.

Lemma exts_map lo hi L tss : Forall2 (is_ext lo hi) L tss -> Forall (toks_within lo hi) tss -> L = map ext tss.
Proof. induction 1; intros Hw; inversion Hw; subst; cbn [map]; f_equal; auto. Qed.

Theorem node_span lo hi L tss : toks_within lo hi (glue tss) -> Forall2 (is_ext lo hi) L tss ->
  union_spans L = ext (glue tss).
Proof. intros W H. rewrite (exts_map _ _ _ _ H (within_pieces _ _ _ W)). exact (union_exts _ _ _ W). Qed.

(** for the two places where the grammar allows a token [g] that no part covers: a comma before the
    `)` of a call, a comma before `by` *)
Theorem node_span_gap lo hi LA LB A g B : toks_within lo hi (glue A ++ g ++ glue B) -> glue A <> [] -> glue B <> [] ->
  Forall2 (is_ext lo hi) LA A -> Forall2 (is_ext lo hi) LB B -> union_spans (LA ++ LB) = ext (glue A ++ g ++ glue B).
Proof.
  intros W HA HB FA FB. destruct (within_app _ _ _ _ W) as [WA Wg]. destruct (within_app _ _ _ _ Wg) as [_ WB].
  rewrite union_spans_app; rewrite (node_span _ _ _ _ WA FA); [|eapply ext_valid; eassumption].
  rewrite (node_span _ _ _ _ WB FB). apply (union2_ext_gap _ _ _ _ _ W HA). intros E. destruct (HB E).
Qed.

Local Notation slice_span cs := (union_spans (filter span_valid (map gspan cs))).

Lemma slice_one c p lo hi : toks_within lo hi p -> p <> [] -> is_ext lo hi (gspan c) p -> slice_span [c] = ext p.
Proof.
  intros W Hne E. cbn [map filter]. rewrite (E W), (ext_valid _ _ _ W Hne). exact (union_exts lo hi [p] W).
Qed.

Lemma slice_cons c cs p g r lo hi : toks_within lo hi (p ++ g ++ r) -> p <> [] -> (r = [] -> g = []) ->
  is_ext lo hi (gspan c) p -> is_ext lo hi (slice_span cs) r -> slice_span (c :: cs) = ext (p ++ g ++ r).
Proof.
  intros W Hp Hg E Er. destruct (within_app _ _ _ _ W) as [Wp Wgr]. destruct (within_app _ _ _ _ Wgr) as [_ Wr].
  cbn [map filter]. rewrite (E Wp), (ext_valid _ _ _ Wp Hp), union_spans_cons, (Er Wr) by (eapply ext_valid; eassumption).
  exact (union2_ext_gap _ _ _ _ _ W Hp Hg).
Qed.

(** [gs] rewrites the span of a [GN] node into the union of its parts, in the order of [span_parts],
    and each part into the span of the field it names. *)
Lemma gspan_GN k fs : gspan (GN k fs) =
  union_spans (map (fun p => assoc_span (map (fun fv => match fv with (f, v) => (f, fspan v) end) fs) (spart_field p)) (span_parts k)).
Proof. reflexivity. Qed.
Lemma fspan_span s : fspan (GSpan s) = s. Proof. reflexivity. Qed.
Lemma fspan_node c : fspan (GNode (Some c)) = gspan c. Proof. reflexivity. Qed.
Lemma fspan_none : fspan (GNode None) = None. Proof. reflexivity. Qed.
Lemma fspan_slice cs : fspan (GSlice cs) = union_spans (filter span_valid (map gspan cs)). Proof. reflexivity. Qed.

Ltac gs := rewrite gspan_GN; cbn [span_parts map spart_field assoc_span fname_eqb fname_code Nat.eqb];
           rewrite ?fspan_span, ?fspan_node, ?fspan_none, ?fspan_slice.

Lemma is_ext_tok k sp t lo hi : is_tok k sp t -> is_ext lo hi sp [t].
Proof. intros [_ <-] _. reflexivity. Qed.
Lemma is_ext_kw ws sp t lo hi : kw_tok ws sp t -> is_ext lo hi sp [t].
Proof. intros (_ & _ & <-) _. reflexivity. Qed.
Lemma is_ext_none lo hi : is_ext lo hi None [].
Proof. intros _. reflexivity. Qed.
Lemma is_ext_pair t1 t2 lo hi : is_ext lo hi (Some (tstart t1, tend t2)) [t1; t2].
Proof. intros _. reflexivity. Qed.
Lemma is_ext_no_slice lo hi : is_ext lo hi (union_spans (filter span_valid [])) [].
Proof. intros _. reflexivity. Qed.

Lemma ident_span i t : ident_tok i t -> forall lo hi, toks_within lo hi [t] -> gspan (g_ident i) = ext [t].
Proof. intros (_ & _ & E) lo hi W. unfold g_ident. gs. rewrite <- E. exact (union_exts lo hi [[t]] W). Qed.

(** one [is_ext] fact per kind of part a node can have *)
Create HintDb spans discriminated.
#[local] Hint Unfold is_ext : spans.
#[local] Hint Resolve is_ext_tok is_ext_kw is_ext_none is_ext_pair is_ext_no_slice ident_span : spans.

(** goal [union_spans L = ext ts] with [ts] the glued [tss]; the parts by [spans] or a hypothesis *)
Ltac node_of lo hi tss W :=
  apply (node_span lo hi _ tss W); repeat (apply Forall2_cons; [eauto with spans|]); apply Forall2_nil.

Lemma toks_qual_ne ps ts : toks_qual ps ts -> ts <> [].
Proof. destruct 1; discriminate. Qed.
Lemma toks_expr_ne e ts : toks_expr e ts -> ts <> [].
Proof.
  destruct 1; try discriminate; try (eapply toks_qual_ne; eassumption);
    match goal with |- ?a ++ _ :: _ <> [] => destruct a; discriminate end.
Qed.
Lemma toks_list_ne l ts : toks_list l ts -> ts <> [].
Proof. destruct 1; [eapply toks_expr_ne; eassumption|destruct te; discriminate]. Qed.

Lemma qual_span ps ts : toks_qual ps ts -> forall lo hi, toks_within lo hi ts -> slice_span (map g_ident ps) = ext ts.
Proof.
  induction 1 as [i t Hi|i t d r tr Hi Hd Hr IH]; intros lo hi W; cbn [map].
  - apply (slice_one _ [t] lo hi W); [discriminate|eauto with spans].
  - apply (slice_cons _ _ [t] [d] tr lo hi W); [discriminate| |eauto with spans|exact (IH lo hi)].
    intros ->. destruct (toks_qual_ne _ _ Hr eq_refl).
Qed.

Theorem expr_span :
  (forall e ts, toks_expr e ts -> forall lo hi, toks_within lo hi ts -> gspan (g_expr e) = ext ts) /\
  (forall l ts, toks_list l ts -> forall lo hi, toks_within lo hi ts -> slice_span (map g_expr l) = ext ts) /\
  (forall l ts, toks_args l ts -> exists ts' c, ts = ts' ++ c /\
     forall lo hi, toks_within lo hi ts' -> slice_span (map g_expr l) = ext ts').
Proof.
  apply toks_expr_mutind.
  - (* qualified name *) intros ps ts Hq lo hi W. cbn [g_expr]. gs. pose proof (qual_span _ _ Hq). node_of lo hi [ts] W.
  - (* literal *) intros sp k v t _ _ _ <- lo hi W. cbn [g_expr]. gs. exact (union_exts lo hi [[t]] W).
  - (* unary *) intros sp op x t tx _ Ht Hx IH lo hi W. cbn [g_expr]. gs. node_of lo hi [[t]; tx] W.
  - (* binary *) intros x sp op y tx t ty _ _ Hx IHx Ht Hy IHy lo hi W. cbn [g_expr]. gs. node_of lo hi [tx; [t]; ty] W.
  - (* in *) intros x isp lsp vs rsp tx ti tl tvs tr Hx IHx Hi Hl Hvs IHvs _ Hr lo hi W. cbn [g_expr]. gs.
    node_of lo hi [tx; [ti]; [tl]; tvs; [tr]] W.
  - (* paren *) intros lsp x rsp tl tx tr Hl Hx IHx Hr lo hi W. cbn [g_expr]. gs. node_of lo hi [[tl]; tx; [tr]] W.
  - (* call: a trailing comma [c] is outside the arguments' span *)
    intros f lsp args rsp tf tl targs tr Hf _ Hl Ha (ta & c & -> & IHa) Hr lo hi W. cbn [g_expr]. gs.
    rewrite <- app_assoc in *.
    apply (node_span_gap lo hi [_; _; _] [_] [[tf]; [tl]; ta] c [[tr]] W); try discriminate;
      repeat (apply Forall2_cons; [eauto with spans|]); apply Forall2_nil.
  - (* index *) intros x lsp i rsp tx tl ti tr Hx IHx Hl Hi IHi Hr lo hi W. cbn [g_expr]. gs.
    node_of lo hi [tx; [tl]; ti; [tr]] W.
  - (* list: one *) intros e te He IH lo hi W. cbn [map].
    apply (slice_one _ te lo hi W); [eapply toks_expr_ne; eassumption|exact (IH lo hi)].
  - (* list: more *) intros e te c r tr He IH Hc Hr IHr Hne lo hi W. cbn [map].
    apply (slice_cons _ _ te [c] tr lo hi W); [eapply toks_expr_ne; eassumption| |exact (IH lo hi)|exact (IHr lo hi)].
    intros ->. destruct (toks_list_ne _ _ Hr eq_refl).
  - (* args: none *) exists [], []. split; reflexivity.
  - (* args: list *) intros args ts Hl IH Hne. exists ts, []. split; [symmetry; apply app_nil_r|exact IH].
  - (* args: trailing comma *) intros args ts c Hl IH Hne Hc. exists ts, [c]. split; [reflexivity|exact IH].
Qed.

Definition expr_ext := proj1 expr_span.
Definition list_ext := proj1 (proj2 expr_span).
#[local] Hint Resolve expr_ext list_ext : spans.

Lemma dir_ext asc sp dflt ts lo hi : toks_dir asc sp dflt ts -> is_ext lo hi sp ts.
Proof. destruct 1; auto with spans. eauto with spans. eauto with spans. Qed.
Lemma nulls_ext dflt nf sp ts lo hi : toks_nulls dflt nf sp ts -> is_ext lo hi sp ts.
Proof. destruct 1; auto with spans. Qed.
#[local] Hint Resolve dir_ext nulls_ext : spans.

Lemma sort_term_span t ts : toks_sort_term t ts -> ts <> [] /\ forall lo hi, toks_within lo hi ts -> gspan (g_sort_term t) = ext ts.
Proof.
  intros [x asc asp dflt nf nsp tx ta tn Hx Hd Hn]. split; [apply app_nonempty_l; eapply toks_expr_ne; eassumption|].
  intros lo hi W. unfold g_sort_term. cbn [st_x st_asc st_ascspan st_nullsfirst st_nullsspan]. gs.
  node_of lo hi [tx; ta; tn] W.
Qed.

Lemma ext_col_span k : k = N_ExtendColumn \/ k = N_SummarizeColumn -> forall c ts, toks_ext_col c ts ->
  ts <> [] /\ forall lo hi, toks_within lo hi ts -> gspan (g_ext_col k c) = ext ts.
Proof.
  intros Hk c ts [i asp x ti ta tx Hi Ha Hx|x tx Hx]; (split; [discriminate || (eapply toks_expr_ne; eassumption)|]);
    intros lo hi W; unfold g_ext_col; cbn [ec_name ec_assign ec_x option_map].
  - destruct Hk as [-> | ->]; gs; node_of lo hi [[ti]; [ta]; tx] W.
  - destruct Hk as [-> | ->]; gs; node_of lo hi [[]; []; tx] W.
Qed.

Lemma proj_col_span c ts : toks_proj_col c ts -> ts <> [] /\ forall lo hi, toks_within lo hi ts -> gspan (g_proj_col c) = ext ts.
Proof.
  intros [i ti Hi|i asp x ti ta tx Hi Ha Hx]; (split; [discriminate|]);
    intros lo hi W; unfold g_proj_col; cbn [pc_name pc_assign pc_x option_map]; gs.
  - node_of lo hi [[ti]; []; []] W.
  - node_of lo hi [[ti]; [ta]; tx] W.
Qed.

Lemma render_prop_span c ts : toks_render_prop c ts -> ts <> [] /\ forall lo hi, toks_within lo hi ts -> gspan (g_render_prop c) = ext ts.
Proof.
  intros [i asp x ti ta tx Hi Ha Hx]. split; [discriminate|].
  intros lo hi W. unfold g_render_prop. cbn [rp_name rp_assign rp_value]. gs. node_of lo hi [[ti]; [ta]; tx] W.
Qed.

Lemma sep_span {A} (P : A -> list token -> Prop) (g : A -> gnode) l ts : toks_sep P l ts ->
  (forall a ta, P a ta -> ta <> [] /\ forall lo hi, toks_within lo hi ta -> gspan (g a) = ext ta) ->
  ts <> [] /\ forall lo hi, toks_within lo hi ts -> slice_span (map g l) = ext ts.
Proof.
  intros H HP. induction H as [a ta Ha|a ta c r tr Ha Hc Hr [IHne IH]]; destruct (HP _ _ Ha) as [Hne Hs];
    (split; [auto using app_nonempty_l|]); intros lo hi W; cbn [map].
  - exact (slice_one _ ta lo hi W Hne (Hs lo hi)).
  - apply (slice_cons _ _ ta [c] tr lo hi W Hne); [intros E; destruct (IHne E)|exact (Hs lo hi)|exact (IH lo hi)].
Qed.

Lemma sep_ext {A} (P : A -> list token -> Prop) (g : A -> gnode) l ts : toks_sep P l ts ->
  (forall a ta, P a ta -> ta <> [] /\ forall lo hi, toks_within lo hi ta -> gspan (g a) = ext ta) ->
  forall lo hi, toks_within lo hi ts -> slice_span (map g l) = ext ts.
Proof. intros H HP. apply (sep_span P g l ts H HP). Qed.
#[local] Hint Resolve sep_ext sort_term_span ext_col_span proj_col_span render_prop_span : spans.

Lemma table_ref_span i t lo hi : ident_tok i t -> toks_within lo hi [t] -> gspan (g_table_ref i) = ext [t].
Proof. intros Hi W. unfold g_table_ref. gs. node_of lo hi [[t]] W. Qed.

Lemma tab_span rsrc rops tsrc tro : ident_tok rsrc tsrc ->
  (forall lo hi, toks_within lo hi tro -> slice_span (map g_op rops) = ext tro) ->
  forall lo hi, toks_within lo hi (tsrc :: tro) ->
  gspan (GN N_TabularExpr [(F_Source, GNode (Some (g_table_ref rsrc))); (F_Operators, GSlice (map g_op rops))]) = ext (tsrc :: tro).
Proof. intros Hi Ho lo hi W. gs. pose proof (table_ref_span _ _ lo hi Hi). node_of lo hi [[tsrc]; tro] W. Qed.
#[local] Hint Resolve tab_span : spans.

Theorem op_span :
  (forall o ts, toks_op o ts -> ts <> [] /\ forall lo hi, toks_within lo hi ts -> gspan (g_op o) = ext ts) /\
  (forall l ts, toks_ops l ts -> forall lo hi, toks_within lo hi ts -> slice_span (map g_op l) = ext ts).
Proof.
  apply toks_op_mutind.
  - (* count *) intros psp ksp p n Hp Hn. split; [discriminate|]. intros lo hi W. cbn [g_op]. gs. node_of lo hi [[p]; [n]] W.
  - (* where *) intros psp ksp x p n tx Hp Hn Hx. split; [discriminate|]. intros lo hi W. cbn [g_op]. gs.
    node_of lo hi [[p]; [n]; tx] W.
  - (* sort *) intros psp terms p n b tt Hp Hn Hb Ht. split; [discriminate|]. intros lo hi W. cbn [g_op]. gs.
    node_of lo hi [[p]; [n; b]; tt] W.
  - (* take *) intros psp ksp x p n tx Hp Hn Hx. split; [discriminate|]. intros lo hi W. cbn [g_op]. gs.
    node_of lo hi [[p]; [n]; tx] W.
  - (* top *) intros psp ksp x bsp col p n tx b tc Hp Hn Hx Hb Hc. split; [discriminate|]. intros lo hi W. cbn [g_op]. gs.
    pose proof (proj2 (sort_term_span _ _ Hc)). node_of lo hi [[p]; [n]; tx; [b]; tc] W.
  - (* project *) intros psp ksp cols p n tc Hp Hn Hc. split; [discriminate|]. intros lo hi W. cbn [g_op]. gs.
    node_of lo hi [[p]; [n]; tc] W.
  - (* extend *) intros psp ksp cols p n tc Hp Hn Hc. split; [discriminate|]. intros lo hi W. cbn [g_op]. gs.
    node_of lo hi [[p]; [n]; tc] W.
  - (* summarize *) intros psp ksp cols bsp gs0 p n body Hp Hn Hs. split; [discriminate|]. intros lo hi W. cbn [g_op].
    destruct Hs as [cols tc Hc|bsp gs0 b tg Hb Hg|cols bsp gs0 tc b tg Hc Hb Hg|cols bsp gs0 tc c b tg Hc _ Hb Hg]; gs.
    + rewrite <- (app_nil_r tc) in W |- *. node_of lo hi [[p]; [n]; tc; []; []] W.
    + node_of lo hi [[p]; [n]; []; [b]; tg] W.
    + node_of lo hi [[p]; [n]; tc; [b]; tg] W.
    + (* the comma before `by` belongs to no part *)
      apply (node_span_gap lo hi [_; _; _] [_; _] [[p]; [n]; tc] [c] [[b]; tg] W); try discriminate;
        repeat (apply Forall2_cons; [eauto with spans|]); apply Forall2_nil.
  - (* join *) intros psp ksp kindsp kasp flavor lsp rsrc rops rsp osp conds p n tk tl tsrc tro tr ton tc Hp Hn Hk Hl Hsrc Hops IHops Hr Hon Hc Hcne.
    split; [discriminate|]. intros lo hi W. cbn [g_op].
    destruct Hk as [|kindsp kasp fl tk ta tf Hkk Hka Hkf _ _]; cbn [option_map]; gs.
    + node_of lo hi [[p]; [n]; []; []; []; [tl]; tsrc :: tro; [tr]; [ton]; tc] W.
    + node_of lo hi [[p]; [n]; [tk]; [ta]; [tf]; [tl]; tsrc :: tro; [tr]; [ton]; tc] W.
  - (* as *) intros psp ksp i p n ti Hp Hn Hi. split; [discriminate|]. intros lo hi W. cbn [g_op]. gs.
    node_of lo hi [[p]; [n]; [ti]] W.
  - (* render *) intros psp ksp chart wsp lsp props rsp p n tch tw Hp Hn Hch Hw. split; [discriminate|]. intros lo hi W. cbn [g_op].
    destruct Hw as [|wsp lsp props rsp tw tl tp tr Hw Hl Hps Hr]; gs.
    + node_of lo hi [[p]; [n]; [tch]; []; []; []; []] W.
    + node_of lo hi [[p]; [n]; [tch]; [tw]; [tl]; tp; [tr]] W.
  - (* no operators *) intros lo hi _. reflexivity.
  - (* one more operator *) intros o to os tos Ho [Hne IHo] Hos IHos lo hi W. cbn [map].
    apply (slice_cons _ _ to [] tos lo hi W Hne); [reflexivity|exact (IHo lo hi)|exact (IHos lo hi)].
Qed.

Theorem stmt_span s ts : toks_stmt s ts -> ts <> [] /\ forall lo hi, toks_within lo hi ts -> gspan (g_stmt s) = ext ts.
Proof.
  intros [ksp i asp x tk ti ta tx Hk Hi Ha Hx|t ts0 (tsrc0 & tro & -> & Hs & Ho)]; (split; [discriminate|]); intros lo hi W; cbn [g_stmt].
  - gs. node_of lo hi [[tk]; [ti]; [ta]; tx] W.
  - apply (tab_span _ _ _ _ Hs (proj2 op_span _ _ Ho) lo hi W).
Qed.

Inductive spans_within : nat -> nat -> list span -> Prop :=
| sw_nil lo hi : lo <= hi -> spans_within lo hi []
| sw_cons lo hi a b r : lo <= a -> a <= b -> b <= hi -> spans_within b hi r -> spans_within lo hi (Some (a, b) :: r).

Lemma spans_within_weaken lo lo' hi L : lo' <= lo -> spans_within lo hi L -> spans_within lo' hi L.
Proof. intros H W. destruct W; constructor; try lia; assumption. Qed.

Theorem prog_spans ss ts : toks_prog ss ts -> forall lo hi, toks_within lo hi ts -> spans_within lo hi (map gspan (map g_stmt ss)).
Proof.
  induction 1 as [|semi ss rest Hsemi Hp IH|s ts Hs|s ts semi ss rest Hs Hsemi Hp IH]; intros lo hi W; cbn [map].
  - constructor. exact (toks_within_le _ _ _ W).
  - inversion W as [|lo1 hi1 t1 ts1 H1 H2 H3 W']; subst. eapply spans_within_weaken; [|apply IH; exact W']. lia.
  - destruct (stmt_span _ _ Hs) as [Hne Hsp]. rewrite (Hsp _ _ W). rewrite ext_some by exact Hne.
    pose proof (ext_inside _ _ _ W) as Hin. rewrite ext_some in Hin by exact Hne. destruct Hin as (H1 & H2 & H3).
    constructor; try assumption. constructor. exact H3.
  - destruct (stmt_span _ _ Hs) as [Hne Hsp].
    destruct (within_app_strong _ _ _ _ W Hne) as [W1 W2]. rewrite (Hsp _ _ W1). rewrite ext_some by exact Hne.
    pose proof (ext_inside _ _ _ W1) as Hin. rewrite ext_some in Hin by exact Hne. destruct Hin as (H1 & H2 & H3).
    inversion W2 as [|lo1 hi1 t1 ts1 G1 G2 G3 W']; subst.
    constructor; try assumption; [pose proof (toks_within_le _ _ _ W'); lia|].
    eapply spans_within_weaken; [|apply IH; exact W']. lia.
Qed.

(** C10 for a successful parse: every recorded position is the span of its token, and the statements'
    spans lie in order inside the source; that each is the extent of its tokens is [stmt_span]. *)
Theorem parse_spans s ss : parse s = ParseOk ss ->
  toks_prog ss (scan s) /\ toks_within 0 (length s) (scan s) /\ spans_within 0 (length s) (map gspan (map g_stmt ss)).
Proof.
  intros H. pose proof (ParserSoundStmt.parse_sound _ _ H) as Hp. pose proof (scan_within s) as W.
  repeat split; [exact Hp|exact W|]. eapply prog_spans; eassumption.
Qed.
