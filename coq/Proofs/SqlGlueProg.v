(** * Every program compiled without parameters prints bytes that lex into the tokens of its
    pieces: the [glue_ok] side condition of SqlGlue.v always holds. *)
From PQL Require Import Spec.SqlRead Proofs.ExprInd Proofs.SplitSteps Proofs.ReadBack Proofs.ReadBackStmt
  Proofs.SubqWf Proofs.SqlGlue Proofs.SqlGlueToks Proofs.SqlGlueWriter.
Local Open Scope list_scope.
Local Open Scope nat_scope.
Local Notation length := List.length (only parsing).

(** number spellings and function names of the shape the lexer produces *)
Fixpoint oper_lex (o : operator) : Prop :=
  match o with
  | OCount _ _ | OAs _ _ _ | ORender _ _ _ _ _ _ _ => True
  | OWhere _ _ p => lexok p
  | OSort _ _ terms => Forall (fun t => lexok (st_x t)) terms
  | OTake _ _ n => lexok n
  | OTop _ _ n _ col => lexok n /\ lexok (st_x col)
  | OProject _ _ cols => Forall (fun col => match pc_x col with Some x => lexok x | None => True end) cols
  | OExtend _ _ cols => Forall (fun col => lexok (ec_x col)) cols
  | OSummarize _ _ cols _ groupby => Forall (fun col => lexok (ec_x col)) cols /\ Forall (fun col => lexok (ec_x col)) groupby
  | OJoin _ _ _ _ _ _ _ rops _ _ conds =>
    Forall lexok conds /\ (fix all (l : list operator) : Prop := match l with [] => True | a :: r => oper_lex a /\ all r end) rops
  end.

Lemma oper_lex_all l : (fix all (l : list operator) : Prop := match l with [] => True | a :: r => oper_lex a /\ all r end) l <-> Forall oper_lex l.
Proof. apply (fix_all_Forall oper_lex). Qed.

Definition op_lex (o : option operator) : Prop :=
  match o with
  | None | Some (OAs _ _ _) | Some (OCount _ _) | Some (ORender _ _ _ _ _ _ _) => True
  | Some (OProject _ _ cols) => Forall (fun col => match pc_x col with Some x => lexok x | None => True end) cols
  | Some (OExtend _ _ cols) => Forall (fun col => lexok (ec_x col)) cols
  | Some (OSummarize _ _ cols _ groupby) => Forall (fun col => lexok (ec_x col)) cols /\ Forall (fun col => lexok (ec_x col)) groupby
  | Some (OWhere _ _ p) => lexok p
  | Some _ => True
  end.

Definition src_lex (s : ssource) : Prop := match s with SrcName _ => True | SrcJoin _ _ _ _ cond _ => lexok cond end.

Definition subq_lex (s : subq) : Prop :=
  op_lex (sq_op s) /\ src_lex (sq_source s) /\
  match sq_sort s with Some terms => Forall (fun t => lexok (st_x t)) terms | None => True end /\
  match sq_take s with Some n => lexok n | None => True end.

Section Lex.
Variable sc : scope.

Lemma lexok_rewrite_simple e : lexok e -> lexok (rewrite_simple_cond sc e).
Proof. intros H. unfold rewrite_simple_cond. destruct (bare_name sc e) as [p|]; [|exact H]. cbn [lexok]. split; exact I. Qed.

Lemma lexok_join_cond conds : Forall lexok conds -> lexok (build_join_cond sc conds).
Proof.
  intros H. apply build_join_cond_ind; [intros _; exact I|intros x y Hx Hy; split; assumption|].
  eapply Forall_impl; [|exact H]. apply lexok_rewrite_simple.
Qed.

Theorem split_queries_lex t subs : Forall oper_lex (tops t) -> split_queries sc [] t = Ok subs -> Forall subq_lex subs.
Proof.
  apply (split_queries_Forall sc subq_lex oper_lex).
  - intros dst ds src. rewrite chain_subquery_eq. repeat split.
  - intros o s Hj Ho (H1 & H2 & H3 & H4). unfold subq_lex.
    destruct o; try discriminate Hj; cbn [decorate oper_lex sq_op sq_source sq_sort sq_take op_lex] in *; try tauto.
    destruct Ho as [Hn Hc]. repeat split; try assumption. constructor; [exact Hc|constructor].
  - intros p k ks ka fl lp rsrc rops rp on conds [Hc _] cond Hw nm u l ou r. repeat split. apply lexok_join_cond. exact Hc.
  - intros p k ks ka fl lp rsrc rops rp on conds [_ Hr]. apply oper_lex_all. exact Hr.
Qed.

Lemma subq_glue_of s : subq_wf sc s -> subq_lex s -> subq_glue sc s.
Proof.
  intros (Ho & Hs & Hsort & Htake) (Lo & Ls & Lsort & Ltake). unfold subq_glue, wl. split; [|split; [|split]].
  - destruct (sq_op s) as [o|]; [|exact I]. destruct o; cbn [op_wf op_lex op_glue] in *; try exact I; try contradiction.
    + split; assumption.
    + destruct Ho as [Hne Hall]. split; [exact Hne|]. rewrite Forall_forall in *. intros col Hin. specialize (Hall col Hin). specialize (Lo col Hin).
      destruct (pc_x col); [split; assumption|exact I].
    + rewrite Forall_forall in *. intros col Hin. split; [apply Ho|apply Lo]; exact Hin.
    + destruct Ho as (Hne & Hc & Hg). destruct Lo as [Lc Lg]. split; [exact Hne|]. rewrite Forall_forall in *.
      split; [intros col Hin; split; [apply Hc|apply Lc]; exact Hin|apply Forall_forall; intros col Hin; split; [apply Hg|apply Lg]; exact Hin].
  - destruct (sq_source s) as [n|u l o r cond ps]; cbn [src_wf src_lex src_glue] in *; [exact I|]. destruct Hs as [Hw Hx]. split; [split; assumption|exact Hx].
  - destruct (sq_sort s) as [terms|]; [|exact I]. destruct Hsort as [Hne Hall]. split; [exact Hne|]. rewrite Forall_forall in *. intros t Hin. split; [apply Hall|apply Lsort]; exact Hin.
  - destruct (sq_take s); [split; assumption|exact I].
Qed.
End Lex.

Definition scope_glued (sc : scope) : Prop := forall n v, scope_get sc n = Some v -> Seg is_start_op is_end v.

Definition stmts_lex (ss : list stmt) : Prop :=
  Forall (fun s => match s with SLet _ _ _ x => lexok x | STab t => Forall oper_lex (tops t) end) ss.

Lemma stmt_loop_glued ss sc q sc' q' : stmts_wf ss -> stmts_lex ss -> scope_glued sc ->
  stmt_loop sc q ss = Ok (sc', q') -> scope_glued sc'.
Proof.
  intros Hwf Hlx Hsc H.
  refine (proj1 (stmt_loop_inv scope_glued (fun s => match s with SLet _ _ _ x => wfr x /\ lexok x | STab _ => True end) _ ss sc q sc' q' _ Hsc H)).
  - clear. intros sc kw name a x v [Hw Hl] Hsc Hv n v0. cbn [scope_get]. destruct (str_eqb (iname name) n); [|apply Hsc].
    intros [= <-]. unfold woperand in Hv. apply (wx_glue (mkCtx sc ModeLet) Hsc x Hw Hl WOperand v Hv).
  - unfold stmts_wf, stmts_lex in *. rewrite Forall_forall in *. intros [? ? ? x|t] Hin; [split; [apply (Hwf _ Hin)|apply (Hlx _ Hin)]|exact I].
Qed.

(** The bytes Compile prints for a program without parameters lex (Spec/SqlLex.v, ClickHouse
    mode) into exactly the token list [ptoks] that ReadBack*.v read back. *)
Theorem compile_stmts_glue source ss ps : stmts_wf ss -> stmts_lex ss -> compile_stmts source [] ss = Ok ps -> glue_ok ps = true.
Proof.
  intros Hwf Hlx H. apply compile_stmts_ok in H as (sc & t & El & Hin & H). cbn [map] in El.
  apply write_query_ok in H as (subs & q & rctes & w & body & Es & Er & Hw & Hbody & ->).
  assert (Hsc : scope_glued sc) by (eapply (stmt_loop_glued ss [] None); [exact Hwf|exact Hlx|intros n v E; discriminate E|exact El]).
  assert (Hops : Forall oper_wf (tops t)) by (unfold stmts_wf in Hwf; rewrite Forall_forall in Hwf; exact (Hwf _ Hin)).
  assert (Hopl : Forall oper_lex (tops t)) by (unfold stmts_lex in Hlx; rewrite Forall_forall in Hlx; exact (Hlx _ Hin)).
  pose proof (split_queries_wf sc t subs Hops Es) as Hsubs. pose proof (split_queries_lex sc t subs Hopl Es) as Hsubl.
  assert (Hall : Forall (subq_glue sc) (q :: rctes)).
  { rewrite <- Er. apply Forall_rev. rewrite Forall_forall in *. intros s Hs. apply subq_glue_of; [apply Hsubs|apply Hsubl]; exact Hs. }
  inversion Hall as [|q0 r0 Hq Hr]; subst.
  apply (statement_glue source sc Hsc (rev rctes) q w body); [apply Forall_rev; exact Hr|exact Hq|exact Hw|exact Hbody].
Qed.

Theorem compile_bytes_lex source ss ps : stmts_wf ss -> stmts_lex ss -> compile_stmts source [] ss = Ok ps ->
  exists ts, ptoks ps = Some ts /\ sql_lex ClickHouse (render ps) = Some ts.
Proof. intros Hwf Hlx H. apply glue_bytes_are_ptoks. eapply compile_stmts_glue; eassumption. Qed.
