(** * C12: [parse] never reports running out of fuel.  The model's recursive descent takes one unit of
    fuel per call level; the field [out_fuel] of [Out] (ParserSound.v) bounds the depth by
    4 x tokens + 6 for a statement, below the fuel [parse] starts with. *)
From PQL Require Import Model.Parser Model.Compile Proofs.ParserSound Proofs.ParserSoundStmt.
From Coq Require Import Lia.
Local Open Scope list_scope.
Local Open Scope nat_scope.

(** the test [parse_tokens] makes; the invariant has it as [Forall no_fuel] *)
Definition nofuel (e : errs) : Prop := existsb efuel e = false.

Lemma nofuel_all e : nofuel e <-> Forall no_fuel e.
Proof. apply existsb_false. Qed.

Lemma nofuel_nil : nofuel []. Proof. reflexivity. Qed.
Lemma nofuel_app a b : nofuel a -> nofuel b -> nofuel (a ++ b).
Proof. rewrite !nofuel_all. apply errs_app. Qed.
Lemma nofuel_opaque e : nofuel e -> nofuel (opaque e).
Proof. rewrite !nofuel_all. apply errs_opaque, keeps_no_fuel. Qed.
Lemma nofuel_err_at p : nofuel (err_at p). Proof. reflexivity. Qed.
Lemma nofuel_nf_at p : nofuel (nf_at p). Proof. reflexivity. Qed.
Lemma nofuel_nopos : nofuel err_nopos. Proof. reflexivity. Qed.
Lemma nofuel_end_split ts : nofuel (end_split ts). Proof. apply nofuel_all, no_fuel_end_split. Qed.
Lemma nofuel_app_inv a b : nofuel (a ++ b) -> nofuel a /\ nofuel b.
Proof. rewrite !nofuel_all. apply Forall_app. Qed.

Theorem p_expr_nofuel srclen f ts x rest e : 4 * length ts + 4 <= f -> p_expr srclen f ts = (x, rest, e) -> nofuel e.
Proof. intros Hf H. apply nofuel_all. exact (out_fuel _ _ _ _ _ _ _ _ (p_expr_out srclen f _ _ _ _ _ (within_refl _) H) Hf). Qed.

Lemma p_statements_nofuel srclen f n ts acc l e : length ts < n -> 4 * length ts + 6 <= f -> nofuel acc ->
  p_statements srclen n f ts acc = (l, e) -> nofuel e.
Proof.
  rewrite !nofuel_all. intros Hn Hf Hacc H.
  exact (proj2 (p_statements_out srclen f n ts acc l e ts H (within_refl ts)) Hn Hf Hacc).
Qed.

Theorem parse_tokens_never_out_of_fuel srclen ts : parse_tokens srclen ts <> ParseOutOfFuel.
Proof.
  unfold parse_tokens. destruct (p_statements srclen _ _ ts []) as [l e] eqn:Ep.
  assert (N : nofuel e).
  { eapply p_statements_nofuel; [| | |exact Ep]; [lia|unfold parse_fuel; lia|reflexivity]. }
  unfold nofuel in N. rewrite N. destruct (no_err e); [destruct l|]; discriminate.
Qed.

Theorem parse_never_out_of_fuel s : parse s <> ParseOutOfFuel.
Proof. apply parse_tokens_never_out_of_fuel. Qed.

Theorem compile_never_out_of_fuel params s : compile params s <> CFuel.
Proof.
  unfold compile. pose proof (parse_never_out_of_fuel s) as H. destruct (parse s) as [ss|e| |]; try discriminate; [|congruence].
  destruct (compile_stmts s params ss); discriminate.
Qed.
