(** * The bytes of the printed SQL lex into the tokens of its pieces.
    The concatenated bytes [render ps] lex, with the dialect's lexer of Spec/SqlLex.v, into the
    tokens of the pieces' atoms ([glue_lexes]; SqlGlueToks.v identifies them with [ptoks ps]),
    provided neighbouring characters across and inside pieces are compatible ([glue_ok], decidable).
    Character codes: 34 double quote, 39 single quote, 43 45 `+` `-`, 46 `.`, 69 101 `E` `e`,
    92 backslash, 123 `{`; the others are spelled out at [p1_chars] and [compat].  [lia] decides
    boolean tests on them ([=?], [&&], [||]) because ZifyBool is loaded. *)
From PQL Require Import Model.Compile Spec.SqlLex Proofs.ExprInd Proofs.QuoteFacts.
From Coq Require Import Lia ZifyBool.
Local Open Scope list_scope.
Local Open Scope nat_scope.
Local Notation length := List.length (only parsing).

(** atoms: the lexical units the writer prints *)
Inductive atom :=
| ASp (c : N)
| AP1 (c : N)
| AP2 (c d : N)
| AWord (w : str)
| ANum (v : str)
| AQuo (q : N) (s : str).  (* content escaped *)

Definition atom_text (a : atom) : str :=
  match a with
  | ASp c => [c] | AP1 c => [c] | AP2 c d => [c; d] | AWord w => w | ANum v => v
  | AQuo q s => quote_with q s
  end.

Definition atom_tok (a : atom) : list stok :=
  match a with
  | ASp _ => []
  | AP1 c => [SPunct [c]] | AP2 c d => [SPunct [c; d]]
  | AWord w => [SWord w] | ANum v => [SNumber v]
  | AQuo q s => [if (q =? 34)%N then SQuoted s else SString s]
  end.

Definition atoms_text (l : list atom) : str := flat_map atom_text l.
Definition atoms_toks (l : list atom) : list stok := flat_map atom_tok l.

(** ( ) [ ] , ; * % = + - / < > .  and  <> <= >= || *)
Definition p1_chars : list N := [40; 41; 91; 93; 44; 59; 42; 37; 61; 43; 45; 47; 60; 62; 46]%N.
Definition p2_ops : list (N * N) := [(60, 62); (60, 61); (62, 61); (124, 124)]%N.

Definition last_char (s : str) : option N := match rev s with c :: _ => Some c | [] => None end.

Definition is_num_text (v : str) : bool :=
  Nat.eqb (number_len v) (length v) && match v with c :: _ => is_digit c | [] => false end
  && match last_char v with Some x => is_digit x || (x =? 46)%N | None => false end.

Definition is_word_text (w : str) : bool :=
  match w with c :: r => is_word_start c && forallb is_word_char r | [] => false end.

Definition atom_wf (a : atom) : bool :=
  match a with
  | ASp c => is_sql_space c
  | AP1 c => existsb (N.eqb c) p1_chars
  | AP2 c d => existsb (fun p => (fst p =? c)%N && (snd p =? d)%N) p2_ops
  | AWord w => is_word_text w
  | ANum v => is_num_text v
  | AQuo q _ => (q =? 34)%N || (q =? 39)%N
  end.

(** may character [y] directly follow character [x]?  Sufficient for the lexer to read them
    apart, not necessary: a letter after a point is refused, yet read apart. *)
Definition compat (x y : N) : bool :=
  negb (is_word_char x && (is_word_char y || (y =? 46)%N))     (* a word or number runs on *)
  && negb ((x =? 46)%N && (is_word_char y || (y =? 46)%N))      (* .5 , 1.e5 , 1.. *)
  && negb ((x =? 45)%N && (y =? 45)%N)                          (* -- *)
  && negb ((x =? 47)%N && (y =? 42)%N)                          (* /* *)
  && negb ((x =? 60)%N && ((y =? 62)%N || (y =? 61)%N))         (* <> <= *)
  && negb ((x =? 62)%N && (y =? 61)%N)                          (* >= *)
  && negb ((x =? 124)%N && (y =? 124)%N)                        (* || *)
  && negb ((x =? 34)%N && (y =? 34)%N)                          (* "" *)
  && negb ((x =? 39)%N && (y =? 39)%N).                         (* '' *)

Lemma compat_parts x y : compat x y = true ->
  (is_word_char x && (is_word_char y || (y =? 46)%N)) = false /\
  ((x =? 46)%N && (is_word_char y || (y =? 46)%N)) = false /\
  ((x =? 45)%N && (y =? 45)%N) = false /\
  ((x =? 47)%N && (y =? 42)%N) = false /\
  ((x =? 60)%N && ((y =? 62)%N || (y =? 61)%N)) = false /\
  ((x =? 62)%N && (y =? 61)%N) = false /\
  ((x =? 124)%N && (y =? 124)%N) = false /\
  ((x =? 34)%N && (y =? 34)%N) = false /\
  ((x =? 39)%N && (y =? 39)%N) = false.
Proof.
  unfold compat. intros H. repeat (apply andb_prop in H as [H ?%Bool.negb_true_iff]).
  apply Bool.negb_true_iff in H. repeat split; assumption.
Qed.

Lemma compat_run x y : compat x y = true -> (is_word_char x || (x =? 46)%N) = true ->
  is_word_char y = false /\ (y =? 46)%N = false.
Proof.
  intros H Hx. destruct (compat_parts x y H) as (P1 & P2 & _). apply Bool.orb_false_iff.
  apply Bool.orb_true_iff in Hx as [Hx|Hx]; [rewrite Hx in P1; exact P1|rewrite Hx in P2; exact P2].
Qed.

Lemma compat_quote q y : (q = 34 \/ q = 39)%N -> compat q y = true -> (y =? q)%N = false.
Proof. intros Hq H. destruct (compat_parts q y H) as (_ & _ & _ & _ & _ & _ & _ & P34 & P39). lia. Qed.

Definition hd_compat (x : N) (rest : str) : bool :=
  match rest with [] => true | y :: _ => compat x y end.

Definition follows_ok (s : str) (rest : str) : bool :=
  match last_char s with Some x => hd_compat x rest | None => true end.

(** [step_*]: one unfolding of [sql_lex_fuel] consumes the text of one atom, if what follows is
    compatible with its last character *)
Lemma step_space m f c r : is_sql_space c = true -> sql_lex_fuel (S f) m (c :: r) = sql_lex_fuel f m r.
Proof. intros H. cbn [sql_lex_fuel]. rewrite H. reflexivity. Qed.

Lemma number_len_nondigit c r : is_digit c = false -> (c =? 46)%N = false -> number_len (c :: r) = 0.
Proof. intros Hd Hdot. unfold number_len. cbn [take_while]. rewrite Hd. cbn [length skipn]. rewrite Hdot. reflexivity. Qed.

Lemma number_len_dot r : (match r with y :: _ => is_digit y = false | [] => True end) -> number_len (46%N :: r) = 0.
Proof.
  intros H. unfold number_len. cbn [take_while]. change (is_digit 46) with false. cbn [length skipn].
  change (46 =? 46)%N with true.
  destruct r as [|y r']; [reflexivity|]. cbn [take_while]. rewrite H. reflexivity.
Qed.

Lemma two_char_none c y : compat c y = true -> existsb (N.eqb c) p1_chars = true ->
  existsb (fun p => (fst p =? c)%N && (snd p =? y)%N) two_char_ops = false.
Proof.
  intros Hc Hp. destruct (compat_parts c y Hc) as (_ & _ & _ & _ & H60 & H62 & H124 & _ & _). clear Hc.
  unfold p1_chars, two_char_ops in *. cbn [existsb fst snd] in *. lia.
Qed.

(** what the lexer's earlier tests make of a punctuation character: decided on the table *)
Lemma p1_chars_plain : forallb (fun c =>
    negb (is_sql_space c) && negb (is_word_start c) && negb (c =? 34)%N && negb (c =? 39)%N && negb (c =? 123)%N
    && existsb (N.eqb c) one_char_puncts && negb (is_digit c)) p1_chars = true.
Proof. reflexivity. Qed.

Lemma step_p1 m f c r : existsb (N.eqb c) p1_chars = true -> hd_compat c r = true -> length r < f ->
  sql_lex_fuel (S f) m (c :: r) = option_map (cons (SPunct [c])) (sql_lex_fuel f m r).
Proof.
  intros Hp Hc Hf.
  assert (Hin : In c p1_chars) by (apply existsb_exists in Hp as (x & Hx & E); apply N.eqb_eq in E; subst; exact Hx).
  pose proof (proj1 (forallb_forall _ _) p1_chars_plain c Hin) as Hpl.
  rewrite !Bool.andb_true_iff, !Bool.negb_true_iff in Hpl.
  destruct Hpl as ((((((Hsp & Hws) & Hq1) & Hq2) & Hq3) & Hone) & Hdig).
  (* a point is the start of a number only before a digit *)
  assert (Hnum : number_len (c :: r) = 0).
  { destruct (N.eqb_spec c 46) as [->|Hne]; [|apply number_len_nondigit; [exact Hdig|apply N.eqb_neq; exact Hne]].
    apply number_len_dot. destruct r as [|y r']; [exact I|]. destruct (compat_run 46 y Hc eq_refl) as [Hw _].
    unfold is_word_char in Hw. clear - Hw. lia. }
  cbn [sql_lex_fuel]. rewrite Hsp. destruct r as [|y r'].
  - rewrite !Bool.andb_false_r, Hq1, Hq2, Hq3, Hws, Hnum, Hone. destruct f; [cbn [length] in Hf; clear - Hf; lia|reflexivity].
  - destruct (compat_parts c y Hc) as (_ & _ & Hcm & Hbc & _).
    rewrite Hcm, Hbc, Hq1, Hq2, Hq3, Hws, Hnum, (two_char_none c y Hc Hp), Hone. reflexivity.
Qed.

Lemma step_p2 m f c d r : existsb (fun p => (fst p =? c)%N && (snd p =? d)%N) p2_ops = true ->
  sql_lex_fuel (S f) m (c :: d :: r) = option_map (cons (SPunct [c; d])) (sql_lex_fuel f m r).
Proof.
  intros Hp.
  assert (Hcases : ((c = 60 /\ d = 62) \/ (c = 60 /\ d = 61) \/ (c = 62 /\ d = 61) \/ (c = 124 /\ d = 124))%N).
  { unfold p2_ops in Hp. cbn [existsb fst snd] in Hp. lia. }
  destruct Hcases as [[-> ->]|[[-> ->]|[[-> ->]|[-> ->]]]]; cbn [sql_lex_fuel is_sql_space is_word_start is_alpha in_range N.eqb Pos.eqb N.leb andb orb];
    rewrite number_len_nondigit by reflexivity; reflexivity.
Qed.

Lemma take_while_app_stop p (w rest : str) : forallb p w = true -> (match rest with y :: _ => p y = false | [] => True end) ->
  take_while p (w ++ rest) = w.
Proof.
  induction w as [|c r IH]; intros Hw Hr; cbn [app take_while forallb] in *.
  - destruct rest as [|y r']; [reflexivity|]. cbn [take_while]. rewrite Hr. reflexivity.
  - apply andb_prop in Hw as [Hc Hw]. rewrite Hc, (IH Hw Hr). reflexivity.
Qed.

Lemma skipn_app_exact {A} (a b : list A) : skipn (length a) (a ++ b) = b.
Proof. induction a as [|x a IH]; cbn [length skipn app]; [reflexivity|exact IH]. Qed.
Lemma firstn_app_exact {A} (a b : list A) : firstn (length a) (a ++ b) = a.
Proof. induction a as [|x a IH]; cbn [length firstn app]; [reflexivity|rewrite IH; reflexivity]. Qed.

Lemma word_start_char c : is_word_start c = true -> is_word_char c = true.
Proof. unfold is_word_start, is_word_char. lia. Qed.

Lemma word_char_plain c : is_word_char c = true ->
  is_sql_space c = false /\ (c =? 45)%N = false /\ (c =? 47)%N = false /\ (c =? 34)%N = false /\ (c =? 39)%N = false /\ (c =? 123)%N = false.
Proof. unfold is_word_char, is_alpha, is_digit, in_range, is_sql_space. lia. Qed.

Lemma step_word m f w r : is_word_text w = true -> (match r with y :: _ => is_word_char y = false | [] => True end) ->
  sql_lex_fuel (S f) m (w ++ r) = option_map (cons (SWord w)) (sql_lex_fuel f m r).
Proof.
  intros Hw Hr. destruct w as [|c w']; [discriminate|]. cbn [is_word_text] in Hw. apply andb_prop in Hw as [Hc Hw'].
  destruct (word_char_plain c (word_start_char c Hc)) as (Hsp & H1 & H2 & H3 & H4 & H5).
  cbn [app sql_lex_fuel]. rewrite Hsp, H1, H2, H3, H4, H5, Hc. cbn [andb].
  rewrite (take_while_app_stop is_word_char w' r Hw' Hr).
  change (c :: w' ++ r) with ((c :: w') ++ r). rewrite skipn_app_exact. reflexivity.
Qed.

Lemma take_while_app_all p (a b : str) : forallb p a = true -> take_while p (a ++ b) = a ++ take_while p b.
Proof. induction a as [|c r IH]; cbn [app take_while forallb]; [reflexivity|]. intros H. apply andb_prop in H as [Hc Hr]. rewrite Hc, (IH Hr). reflexivity. Qed.

Lemma take_while_full p (l : str) : length (take_while p l) = length l -> forallb p l = true.
Proof.
  induction l as [|c r IH]; cbn [take_while forallb length]; [reflexivity|]. destruct (p c); cbn [length]; [|discriminate].
  intros H. apply IH. lia.
Qed.

Lemma hd_app_nonempty (a r : str) (P : N -> Prop) : a <> [] -> (match a with y :: _ => P y | [] => True end) ->
  match a ++ r with y :: _ => P y | [] => True end.
Proof. destruct a; [congruence|]. intros _ H. exact H. Qed.

(** On a text that starts with a digit [number_len] is the digit loop of the PQL scanner,
    [digits_len false], which is structurally recursive: facts are shown for the loop. *)
Definition frac_len (d1 : nat) (r1 : str) : nat :=
  match r1 with
  | c :: r => if (c =? 46)%N then
                let d2 := length (take_while is_digit r) in
                if Nat.eqb d1 0 && Nat.eqb d2 0 then 0 else S d2
              else 0
  | [] => 0
  end.

Definition exp_len (r2 : str) : nat :=
  match r2 with
  | e :: r =>
    if (e =? 101)%N || (e =? 69)%N then
      match r with
      | s :: r' =>
        if (s =? 43)%N || (s =? 45)%N then
          match take_while is_digit r' with [] => 0 | ds => 2 + length ds end
        else match take_while is_digit r with [] => 0 | ds => 1 + length ds end
      | [] => 0
      end
    else 0
  | [] => 0
  end.

Lemma number_len_stages l :
  number_len l =
    let d1 := length (take_while is_digit l) in
    let r1 := skipn d1 l in
    let frac := frac_len d1 r1 in
    if Nat.eqb d1 0 && Nat.eqb frac 0 then 0 else d1 + frac + exp_len (skipn frac r1).
Proof. reflexivity. Qed.

Lemma exp_len_eq l : exp_len l = exponent_len l.
Proof.
  unfold exp_len, exponent_len. destruct l as [|e r]; [reflexivity|]. destruct ((e =? 101)%N || (e =? 69)%N); [|reflexivity].
  destruct r as [|s r']; [reflexivity|]. destruct ((s =? 43)%N || (s =? 45)%N).
  - destruct r' as [|d r'']; [reflexivity|]. cbn [take_while]. destruct (is_digit d); reflexivity.
  - cbn [take_while]. destruct (is_digit s); reflexivity.
Qed.

Lemma digits_true_run l : digits_len true l = length (take_while is_digit l) + exponent_len (skipn (length (take_while is_digit l)) l).
Proof.
  induction l as [|c r IH]; [reflexivity|]. cbn [digits_len take_while]. cbn [negb andb]. rewrite Bool.andb_false_r.
  destruct (is_digit c) eqn:E; cbn [length skipn]; [rewrite IH; reflexivity|reflexivity].
Qed.

Lemma digits_false_run l : digits_len false l =
  length (take_while is_digit l) +
  match skipn (length (take_while is_digit l)) l with
  | c :: r => if (c =? 46)%N then S (digits_len true r) else exponent_len (c :: r)
  | [] => 0
  end.
Proof.
  induction l as [|c r IH]; [reflexivity|]. cbn [digits_len take_while]. cbn [negb]. rewrite Bool.andb_true_r.
  destruct (c =? 46)%N eqn:E46.
  - assert (Hnd : is_digit c = false) by (unfold is_digit, in_range; lia). rewrite Hnd. cbn [length skipn]. rewrite E46. reflexivity.
  - destruct (is_digit c) eqn:Ed; cbn [length skipn]; [rewrite IH; reflexivity|rewrite E46; reflexivity].
Qed.

Lemma digits_false_stages l : (match l with c :: _ => is_digit c = true | [] => False end) ->
  digits_len false l = number_len l.
Proof.
  intros Hd. rewrite number_len_stages, digits_false_run. cbv zeta.
  set (T := take_while is_digit l). set (R1 := skipn (length T) l).
  assert (E0 : Nat.eqb (length T) 0 = false) by (unfold T; destruct l as [|c r]; [contradiction|cbn [take_while]; rewrite Hd; reflexivity]).
  rewrite E0. cbn [andb].
  unfold frac_len. destruct R1 as [|c r]; [cbn [skipn]; unfold exp_len; lia|].
  destruct (c =? 46)%N eqn:E46.
  - rewrite E0. cbn [andb]. cbn [skipn]. rewrite digits_true_run, exp_len_eq. lia.
  - cbn [skipn]. rewrite exp_len_eq. lia.
Qed.

Definition num_stop (r : str) : Prop :=
  match r with y :: _ => is_digit y = false /\ (y =? 46)%N = false /\ (y =? 101)%N = false /\ (y =? 69)%N = false | [] => True end.

Lemma stop_nondigit r : num_stop r -> match r with y :: _ => is_digit y = false | [] => True end.
Proof. destruct r; [trivial|]. intros (H & _). exact H. Qed.

Lemma exponent_len_app l r : exponent_len l = length l -> num_stop r -> exponent_len (l ++ r) = length l.
Proof.
  intros Hl Hr. pose proof (stop_nondigit r Hr) as Hd.
  assert (Hrun : forall ds, length (take_while is_digit ds) = length ds -> take_while is_digit (ds ++ r) = ds)
    by (intros ds H; apply take_while_app_stop; [apply take_while_full; exact H|exact Hd]).
  destruct l as [|e [|s l']]; cbn [app].
  - destruct r as [|y r']; [reflexivity|]. destruct Hr as (_ & _ & H1 & H2). unfold exponent_len. rewrite H1, H2. reflexivity.
  - unfold exponent_len in Hl. destruct (_ || _) in Hl; discriminate Hl.
  - unfold exponent_len in *. destruct ((e =? 101)%N || (e =? 69)%N); [|discriminate Hl].
    destruct ((s =? 43)%N || (s =? 45)%N).
    + destruct l' as [|d l'']; [discriminate Hl|]. cbn [app]. destruct (is_digit d); [|discriminate Hl].
      change (d :: l'' ++ r) with ((d :: l'') ++ r). rewrite Hrun by (cbn [length] in *; lia). reflexivity.
    + destruct (is_digit s); [|discriminate Hl].
      change (s :: l' ++ r) with ((s :: l') ++ r). rewrite Hrun by (cbn [length] in *; lia). reflexivity.
Qed.

Lemma digits_len_app r : num_stop r -> forall v d, digits_len d v = length v -> digits_len d (v ++ r) = length v.
Proof.
  intros Hr. induction v as [|c v IH]; intros d Hv.
  - pose proof (exponent_len_app [] r eq_refl Hr) as He. destruct r as [|y r']; [reflexivity|].
    destruct Hr as (Hd & H46 & _). cbn [app digits_len] in *. rewrite H46, Hd. exact He.
  - cbn [app digits_len length] in *. destruct ((c =? 46)%N && negb d); [rewrite IH by lia; reflexivity|].
    destruct (is_digit c); [rewrite IH by lia; reflexivity|exact (exponent_len_app (c :: v) r Hv Hr)].
Qed.

Lemma step_num m f v r : is_num_text v = true -> num_stop r ->
  sql_lex_fuel (S f) m (v ++ r) = option_map (cons (SNumber v)) (sql_lex_fuel f m r).
Proof.
  intros Hv Hr. unfold is_num_text in Hv. apply andb_prop in Hv as [Hv _]. apply andb_prop in Hv as [Hn Hd]. apply Nat.eqb_eq in Hn.
  destruct v as [|c v']; [discriminate|].
  assert (Hlen : number_len ((c :: v') ++ r) = length (c :: v')).
  { rewrite <- digits_false_stages in * by exact Hd. apply digits_len_app; assumption. }
  assert (Hwc : is_word_char c = true) by (unfold is_word_char; rewrite Hd, Bool.orb_true_r; reflexivity).
  destruct (word_char_plain c Hwc) as (Hsp & H1 & H2 & H3 & H4 & H5).
  assert (Hws : is_word_start c = false) by (unfold is_digit, is_word_start, is_alpha, in_range in *; lia).
  cbn [app sql_lex_fuel]. rewrite Hsp, H1, H2, H3, H4, H5, Hws. cbn [andb].
  change (c :: v' ++ r) with ((c :: v') ++ r). rewrite Hlen. cbn [length Nat.eqb negb].
  change (S (length v')) with (length (c :: v')). rewrite firstn_app_exact, skipn_app_exact. reflexivity.
Qed.

(** [nx]: the character that follows the atoms, if any *)
Definition nx_compat (x : N) (nx : option N) : bool := match nx with Some y => compat x y | None => true end.
Definition first_of (s : str) (nx : option N) : option N := match s with c :: _ => Some c | [] => nx end.
Definition atom_follow (a : atom) (nx : option N) : bool :=
  match last_char (atom_text a) with Some x => nx_compat x nx | None => true end.

Fixpoint glue_atoms (l : list atom) (nx : option N) : bool :=
  match l with
  | [] => true
  | a :: r => atom_wf a && atom_follow a (first_of (atoms_text r) nx) && glue_atoms r nx
  end.

Lemma last_char_snoc (s : str) x : last_char (s ++ [x]) = Some x.
Proof. unfold last_char. rewrite rev_app_distr. reflexivity. Qed.

Lemma last_char_none (s : str) : last_char s = None -> s = [].
Proof. unfold last_char. intros H. destruct (rev s) eqn:E; [|discriminate]. rewrite <- (rev_involutive s), E. reflexivity. Qed.

Lemma last_char_app (a b : str) : b <> [] -> last_char (a ++ b) = last_char b.
Proof.
  intros Hb. unfold last_char. rewrite rev_app_distr. destruct (rev b) eqn:E; [|reflexivity].
  destruct Hb. apply last_char_none. unfold last_char. rewrite E. reflexivity.
Qed.

Lemma last_char_cons c (s : str) : s <> [] -> last_char (c :: s) = last_char s.
Proof. exact (last_char_app [c] s). Qed.

Lemma last_char_in p (s : str) x : forallb p s = true -> last_char s = Some x -> p x = true.
Proof.
  intros Hp Hl. unfold last_char in Hl. destruct (rev s) as [|y r] eqn:E; [discriminate|]. injection Hl as ->.
  rewrite forallb_forall in Hp. apply Hp. apply in_rev. rewrite E. left. reflexivity.
Qed.

Lemma last_char_forall p (s : str) : s <> [] -> forallb p s = true -> exists x, last_char s = Some x /\ p x = true.
Proof.
  intros Hne Hp. destruct (last_char s) as [x|] eqn:E; [|destruct Hne; apply last_char_none; exact E].
  exists x. split; [reflexivity|exact (last_char_in p s x Hp E)].
Qed.

Lemma quote_last q s : last_char (quote_with q s) = Some q.
Proof. rewrite quote_with_eq, app_comm_cons. apply last_char_snoc. Qed.

Lemma first_of_app (a b : str) nx : first_of (a ++ b) nx = first_of a (first_of b nx).
Proof. destruct a; reflexivity. Qed.

Lemma atom_nonempty a : atom_wf a = true -> 1 <= length (atom_text a).
Proof.
  destruct a; cbn [atom_wf atom_text length]; try lia.
  - unfold is_word_text. destruct w; [discriminate|cbn [length]; lia].
  - unfold is_num_text. destruct v; [cbn [andb]; discriminate|cbn [length]; lia].
  - intros _. rewrite quote_with_eq. cbn [length]. lia.
Qed.

Lemma word_last w : is_word_text w = true -> exists x, last_char w = Some x /\ is_word_char x = true.
Proof.
  unfold is_word_text. destruct w as [|c r]; [discriminate|]. intros H. apply andb_prop in H as [Hc Hr].
  apply last_char_forall; [discriminate|]. cbn [forallb]. rewrite (word_start_char c Hc), Hr. reflexivity.
Qed.

Lemma num_last v : is_num_text v = true -> exists x, last_char v = Some x /\ (is_digit x || (x =? 46)%N) = true.
Proof. unfold is_num_text. intros H. apply andb_prop in H as [_ H]. destruct (last_char v) as [x|]; [exists x; auto|discriminate]. Qed.

Lemma follow_hd (s : str) x R (P : N -> Prop) : last_char s = Some x ->
  match last_char s with Some x => nx_compat x (first_of R None) | None => true end = true ->
  (forall y, compat x y = true -> P y) -> match R with y :: _ => P y | [] => True end.
Proof. intros -> H HP. destruct R as [|y R']; [exact I|exact (HP y H)]. Qed.

Lemma lex_atom a R f : atom_wf a = true -> atom_follow a (first_of R None) = true -> length R < f ->
  sql_lex_fuel (S f) ClickHouse (atom_text a ++ R) = option_map (app (atom_tok a)) (sql_lex_fuel f ClickHouse R).
Proof.
  intros Hwf Hfo Hf. unfold atom_follow in Hfo.
  destruct a as [c|c|c d|w|v|q s]; cbn [atom_wf atom_text atom_tok app] in *.
  - rewrite step_space by exact Hwf. destruct (sql_lex_fuel f _ R); reflexivity.
  - apply step_p1; [exact Hwf| |exact Hf]. destruct R; [reflexivity|exact Hfo].
  - apply step_p2. exact Hwf.
  - destruct (word_last w Hwf) as (x & El & Hx). apply step_word; [exact Hwf|].
    apply (follow_hd w x R _ El Hfo). intros y Hc. apply (compat_run x y Hc). rewrite Hx. reflexivity.
  - destruct (num_last v Hwf) as (x & El & Hx). apply step_num; [exact Hwf|].
    apply (follow_hd v x R _ El Hfo). intros y Hc.
    destruct (compat_run x y Hc) as [Hw H46]; unfold is_word_char, is_alpha, is_digit, in_range in *; lia.
  - apply (lex_quoted ClickHouse); [lia|].
    apply (follow_hd _ q R _ (quote_last q s) Hfo). intros y Hc. apply compat_quote; [lia|exact Hc].
Qed.

Theorem lex_atoms : forall l b f, glue_atoms l (first_of b None) = true -> length (atoms_text l ++ b) < f ->
  sql_lex_fuel f ClickHouse (atoms_text l ++ b) = option_map (app (atoms_toks l)) (sql_lex_fuel (f - length l) ClickHouse b).
Proof.
  induction l as [|a r IH]; intros b f Hg Hf.
  - cbn [atoms_text atoms_toks flat_map app length]. rewrite Nat.sub_0_r. destruct (sql_lex_fuel f ClickHouse b); reflexivity.
  - cbn [glue_atoms] in Hg. apply andb_prop in Hg as [Hg Hr]. apply andb_prop in Hg as [Hwf Hfo].
    change (atoms_text (a :: r)) with (atom_text a ++ atoms_text r) in *. rewrite <- first_of_app in Hfo. rewrite <- app_assoc in *.
    pose proof (atom_nonempty a Hwf) as Hne. rewrite app_length in Hf.
    destruct f as [|f]; [lia|]. rewrite lex_atom, IH by (assumption || lia).
    change (atoms_toks (a :: r)) with (atom_tok a ++ atoms_toks r). cbn [length Nat.sub].
    destruct (sql_lex_fuel _ _ b); cbn [option_map]; [rewrite app_assoc|]; reflexivity.
Qed.

(** a tokenizer for the restricted alphabet the writer's templates use *)
Fixpoint tmpl_atoms (fuel : nat) (s : str) : option (list atom) :=
  match fuel with
  | O => None
  | S f =>
    match s with
    | [] => Some []
    | c :: r =>
      if is_sql_space c then option_map (cons (ASp c)) (tmpl_atoms f r)
      else if is_word_start c then
        let w := c :: take_while is_word_char r in
        option_map (cons (AWord w)) (tmpl_atoms f (skipn (length (take_while is_word_char r)) r))
      else if (c =? 34)%N then
        let body := take_while (fun x => negb ((x =? 34)%N || (x =? 92)%N)) r in
        match skipn (length body) r with
        | q :: r' => if (q =? 34)%N then option_map (cons (AQuo 34 body)) (tmpl_atoms f r') else None
        | [] => None
        end
      else
        match r with
        | d :: r' =>
          if existsb (fun p => (fst p =? c)%N && (snd p =? d)%N) p2_ops then option_map (cons (AP2 c d)) (tmpl_atoms f r')
          else if existsb (N.eqb c) p1_chars then option_map (cons (AP1 c)) (tmpl_atoms f r) else None
        | [] => if existsb (N.eqb c) p1_chars then Some [AP1 c] else None
        end
    end
  end.

Definition lit_atoms (s : str) : option (list atom) :=
  match tmpl_atoms (S (length s)) s with
  | Some l => if str_eqb (atoms_text l) s then Some l else None
  | None => None
  end.

Definition piece_atoms (p : piece) : option (list atom) :=
  match p with
  | PLit s => lit_atoms s
  | PIdent n => Some [AQuo 34 n]
  | PStr v => Some [AQuo 39 v]
  | PNum v => Some [ANum v]
  | PFunc n => Some [AWord n]
  | PRaw _ | PHole _ => None
  end.

Definition piece_glue (p : piece) (nx : option N) : bool :=
  match piece_atoms p with Some l => glue_atoms l nx | None => false end.

Fixpoint pieces_glue (ps : list piece) (nx : option N) : bool :=
  match ps with
  | [] => true
  | p :: r => piece_glue p (first_of (render r) nx) && pieces_glue r nx
  end.
Definition glue_ok (ps : list piece) : bool := pieces_glue ps None.

Fixpoint pieces_atoms (ps : list piece) : option (list atom) :=
  match ps with
  | [] => Some []
  | p :: r => match piece_atoms p, pieces_atoms r with Some a, Some b => Some (a ++ b) | _, _ => None end
  end.

Lemma piece_atoms_text p l : piece_atoms p = Some l -> atoms_text l = render_piece p.
Proof.
  destruct p; cbn [piece_atoms render_piece]; try discriminate.
  - unfold lit_atoms. destruct (tmpl_atoms _ s) as [l0|]; [|discriminate]. destruct (str_eqb (atoms_text l0) s) eqn:E; [|discriminate].
    intros [= <-]. apply str_eqb_eq. exact E.
  - intros [= <-]. cbn [atoms_text flat_map atom_text]. apply app_nil_r.
  - intros [= <-]. cbn [atoms_text flat_map atom_text]. apply app_nil_r.
  - intros [= <-]. cbn [atoms_text flat_map atom_text]. apply app_nil_r.
  - intros [= <-]. cbn [atoms_text flat_map atom_text]. apply app_nil_r.
Qed.

Lemma glue_atoms_app l1 l2 nx : glue_atoms (l1 ++ l2) nx = glue_atoms l1 (first_of (atoms_text l2) nx) && glue_atoms l2 nx.
Proof.
  induction l1 as [|a r IH]; cbn [app glue_atoms]; [reflexivity|].
  rewrite IH. unfold atoms_text at 1. rewrite flat_map_app. fold (atoms_text r) (atoms_text l2). rewrite first_of_app.
  destruct (atom_wf a), (atom_follow a _), (glue_atoms r _), (glue_atoms l2 nx); reflexivity.
Qed.

Lemma atoms_text_app l1 l2 : atoms_text (l1 ++ l2) = atoms_text l1 ++ atoms_text l2.
Proof. unfold atoms_text. apply flat_map_app. Qed.
Lemma atoms_toks_app l1 l2 : atoms_toks (l1 ++ l2) = atoms_toks l1 ++ atoms_toks l2.
Proof. unfold atoms_toks. apply flat_map_app. Qed.

Lemma pieces_glue_atoms : forall ps nx, pieces_glue ps nx = true ->
  exists l, pieces_atoms ps = Some l /\ atoms_text l = render ps /\ glue_atoms l nx = true.
Proof.
  induction ps as [|p r IH]; intros nx H; cbn [pieces_glue pieces_atoms] in *.
  - exists []. repeat split.
  - apply andb_prop in H as [Hp Hr]. destruct (IH nx Hr) as (lr & Er & Tr & Gr).
    unfold piece_glue in Hp. destruct (piece_atoms p) as [lp|] eqn:Ep; [|discriminate].
    exists (lp ++ lr). rewrite Er. split; [reflexivity|]. split.
    + rewrite atoms_text_app, (piece_atoms_text _ _ Ep), Tr. reflexivity.
    + rewrite glue_atoms_app, Tr, Hp, Gr. reflexivity.
Qed.

Theorem lex_glued l : glue_atoms l None = true -> sql_lex ClickHouse (atoms_text l) = Some (atoms_toks l).
Proof.
  intros H. unfold sql_lex. pose proof (lex_atoms l [] (S (length (atoms_text l)))) as Hl.
  rewrite app_nil_r in Hl. rewrite Hl; [|exact H|lia].
  assert (Hlen : length l <= length (atoms_text l)).
  { clear Hl. induction l as [|a r IH]; [cbn; lia|]. cbn [glue_atoms] in H. apply andb_prop in H as [H Hr]. apply andb_prop in H as [Hwf _].
    change (a :: r) with ([a] ++ r). rewrite atoms_text_app. cbn [atoms_text flat_map]. rewrite ?app_length, ?app_nil_r. fold (atoms_text r). pose proof (atom_nonempty a Hwf).
    specialize (IH Hr). cbn [length]. lia. }
  destruct (S (length (atoms_text l)) - length l) as [|k] eqn:E; [lia|]. cbn [sql_lex_fuel option_map]. rewrite app_nil_r. reflexivity.
Qed.

Lemma glue_atoms_weaken l nx : glue_atoms l nx = true -> glue_atoms l None = true.
Proof.
  induction l as [|a r IH]; [reflexivity|]. cbn [glue_atoms]. intros H. apply andb_prop in H as [H Hr]. apply andb_prop in H as [Hwf Hfo].
  rewrite Hwf, (IH Hr). cbn [andb]. rewrite Bool.andb_true_r.
  destruct (atoms_text r) as [|y t]; cbn [first_of] in *; [|exact Hfo].
  unfold atom_follow. destruct (last_char (atom_text a)); reflexivity.
Qed.

Lemma ptok_atoms p l nx : piece_atoms p = Some l -> glue_atoms l nx = true ->
  match p with
  | PLit s => sql_lex ClickHouse s = Some (atoms_toks l)
  | PIdent n => atoms_toks l = [SQuoted n]
  | PStr v => atoms_toks l = [SString v]
  | PNum v => atoms_toks l = [SNumber v]
  | PFunc n => atoms_toks l = [SWord n]
  | _ => False
  end.
Proof.
  intros Ep Hg. destruct p; cbn [piece_atoms] in Ep; try discriminate; try (injection Ep as <-; reflexivity).
  pose proof (piece_atoms_text (PLit s) l Ep) as Ht. cbn [render_piece] in Ht. rewrite <- Ht.
  apply lex_glued. eapply glue_atoms_weaken. exact Hg.
Qed.

Theorem glue_lexes ps : glue_ok ps = true ->
  exists l, pieces_atoms ps = Some l /\ sql_lex ClickHouse (render ps) = Some (atoms_toks l).
Proof.
  intros H. destruct (pieces_glue_atoms ps None H) as (l & El & Tl & Gl).
  exists l. split; [exact El|]. rewrite <- Tl. apply lex_glued. exact Gl.
Qed.

(** run by the correspondence harness; the answers spell OK, NOGLUE, ERR, INTERNAL *)
Definition show_glue (s : str) : str :=
  match compile [] s with
  | COk ps => if glue_ok ps then [79; 75]%N else [78; 79; 71; 76; 85; 69]%N
  | CParseErr _ | CErr _ => [69; 82; 82]%N
  | _ => [73; 78; 84; 69; 82; 78; 65; 76]%N
  end.
