(** * Everything [split_queries] produces is well formed in the sense of ReadBackStmt.v, so the
    whole compiled statement re-reads as the subqueries whose evaluation PipelineFacts.v and
    JoinFacts.v prove equal to the pipeline's meaning. *)
From PQL Require Import Spec.SqlRead Proofs.ExprInd Proofs.SplitSteps Proofs.ReadBack Proofs.ReadBackStmt.
Local Open Scope list_scope.
Local Open Scope nat_scope.
Local Notation length := List.length (only parsing).

(** operators as the parser builds them: [wfr] expressions, and term and column lists non-empty
    where the grammar wants one member at least *)
Fixpoint oper_wf (o : operator) : Prop :=
  match o with
  | OCount _ _ | OAs _ _ _ | ORender _ _ _ _ _ _ _ => True
  | OWhere _ _ p => wfr p
  | OSort _ _ terms => terms <> [] /\ Forall (fun t => wfr (st_x t)) terms
  | OTake _ _ n => wfr n
  | OTop _ _ n _ col => wfr n /\ wfr (st_x col)
  | OProject _ _ cols => cols <> [] /\ Forall (fun col => match pc_x col with Some x => wfr x | None => True end) cols
  | OExtend _ _ cols => Forall (fun col => wfr (ec_x col)) cols
  | OSummarize _ _ cols _ groupby => (cols <> [] \/ groupby <> []) /\ Forall (fun col => wfr (ec_x col)) cols /\ Forall (fun col => wfr (ec_x col)) groupby
  | OJoin _ _ _ _ _ _ _ rops _ _ conds =>
    Forall wfr conds /\ (fix all (l : list operator) : Prop := match l with [] => True | a :: r => oper_wf a /\ all r end) rops
  end.

Lemma oper_wf_all l : (fix all (l : list operator) : Prop := match l with [] => True | a :: r => oper_wf a /\ all r end) l <-> Forall oper_wf l.
Proof. apply (fix_all_Forall oper_wf). Qed.

Section Wf.
Variable sc : scope.

Lemma wfr_rewrite_simple e : wfr e -> wfr (rewrite_simple_cond sc e).
Proof.
  intros H. unfold rewrite_simple_cond. destruct (bare_name sc e) as [p|]; [|exact H].
  cbn [wfr]. repeat split; try discriminate; reflexivity.
Qed.

Lemma wfr_join_cond conds : Forall wfr conds -> wfr (build_join_cond sc conds).
Proof.
  intros H. apply build_join_cond_ind; [intros _; cbn [wfr]; discriminate| |eapply Forall_impl; [|exact H]; apply wfr_rewrite_simple].
  intros x y Hx Hy. cbn [wfr]. repeat split; try discriminate; try reflexivity; assumption.
Qed.

Theorem split_queries_wf t subs : Forall oper_wf (tops t) -> split_queries sc [] t = Ok subs -> Forall (subq_wf sc) subs.
Proof.
  apply (split_queries_Forall sc (subq_wf sc) oper_wf).
  - intros dst ds src. rewrite chain_subquery_eq. repeat split.
  - intros o s Hj Ho (H1 & H2 & H3 & H4). unfold subq_wf.
    destruct o; try discriminate Hj; cbn [decorate oper_wf sq_op sq_source sq_sort sq_take op_wf] in *; try tauto.
    (* top: its column becomes a sort list of one term *)
    destruct Ho as [Hn Hc]. repeat split; try assumption; [discriminate|constructor; [exact Hc|constructor]].
  - intros p k ks ka fl lp rsrc rops rp on conds [Hc _] cond Hw nm u l ou r.
    (* not [repeat split]: on the equation it would try [eq_refl] and unfold the writer *)
    unfold wexpr in Hw. split; [exact I|]. split; [split; [apply wfr_join_cond; exact Hc|exact Hw]|split; exact I].
  - intros p k ks ka fl lp rsrc rops rp on conds [_ Hr]. apply oper_wf_all. exact Hr.
Qed.
End Wf.

Definition stmts_wf (ss : list stmt) : Prop :=
  Forall (fun s => match s with SLet _ _ _ x => wfr x | STab t => Forall oper_wf (tops t) end) ss.

Lemma stmts_wf_lets ss : stmts_wf ss -> lets_wfr ss.
Proof. intros H. eapply Forall_impl; [|exact H]. intros [? ? ? x|t] Hs; [exact Hs|exact I]. Qed.

(** What Compile prints for a program without parameters re-reads, token for token, as the
    subqueries [split_queries] made of its query (the objects of C02_pipeline and C03_joins,
    Props/C02.v, C03.v), every expression as its intended tree and every let-bound name replaced
    by the tree of its value. *)
Theorem compiled_program_rereads source ss ps : stmts_wf ss -> compile_stmts source [] ss = Ok ps ->
  exists sc t subs q rctes,
    stmt_loop [] None ss = Ok (sc, Some t) /\ split_queries sc [] t = Ok subs /\ rev subs = q :: rctes /\
    let '(names, vals) := let_vals [] (fun _ => XWord []) false ss in
    exists ts, ptoks ps = Some ts /\
      Conv (fun fx => read_stmt fx ts)
           (map (fun s => (sq_name s, den_select source sc vals s)) (rev rctes), den_select source sc vals q).
Proof.
  intros Hwf H. apply compile_stmts_ok in H as (sc & t & El & Hin & H). cbn [map] in El.
  apply write_query_ok in H as (subs & q & rctes & w & body & Es & Er & Hw & Hbody & ->).
  exists sc, t, subs, q, rctes. repeat split; try reflexivity; try assumption.
  pose proof (let_chain_scope ss [] [] (fun _ => XWord []) None sc (Some t) (stmts_wf_lets _ Hwf) ltac:(intros n ps H0; discriminate) ltac:(intros n; reflexivity) El) as Hsc.
  cbn iota in Hsc. destruct (let_vals [] (fun _ => XWord []) false ss) as [names vals]. destruct Hsc as [Hinv _].
  assert (Hops : Forall oper_wf (tops t)) by (unfold stmts_wf in Hwf; rewrite Forall_forall in Hwf; exact (Hwf _ Hin)).
  pose proof (split_queries_wf sc t subs Hops Es) as Hsubs.
  assert (Hall : Forall (subq_wf sc) (q :: rctes)) by (rewrite <- Er; apply Forall_rev; exact Hsubs).
  inversion Hall as [|q0 r0 Hq Hr]; subst.
  apply (statement_reads source sc vals Hinv (rev rctes) q w body); [apply Forall_rev; exact Hr|exact Hq|exact Hw|exact Hbody].
Qed.
