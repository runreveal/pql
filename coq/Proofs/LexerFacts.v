(** * Facts about the lexer model.  What an item is: the nine shapes of [lex1], the three of
    [lex_number], one round of [string_body].  No item crosses a line end, so it stays inside its
    input.  The scan loop as an induction principle. *)
From PQL Require Import Model.Lexer.
(* [ZifyBool]: [lia] reads the boolean byte tests ([in_range], [is_digit], ...) once unfolded *)
From Coq Require Import Lia ZifyBool.

Local Open Scope nat_scope.

Lemma skipn_length_le {A} n (l : list A) : length (skipn n l) <= length l.
Proof. rewrite skipn_length. lia. Qed.

Lemma skipn_skipn_add {A} a b (l : list A) : skipn a (skipn b l) = skipn (a + b) l.
Proof.
  revert l; induction b as [|b IH]; intros l.
  - rewrite Nat.add_0_r. reflexivity.
  - destruct l as [|x r]; [now rewrite !skipn_nil|].
    replace (a + S b) with (S (a + b)) by lia. cbn [skipn]. apply IH.
Qed.

Lemma take_while_length p l : length (take_while p l) <= length l.
Proof. induction l as [|c r IH]; simpl; [lia|]. destruct (p c); simpl; lia. Qed.

(** All the proofs need of UTF-8: a rune is one ASCII byte, or it and each of its bytes are
    >= 128 (no newline, quote or operator). *)
Lemma decode_cases b r :
  ((b < 128)%N /\ decode (b :: r) = (b, 1)) \/
  ((128 <= b)%N /\ let '(c, w) := decode (b :: r) in
     (128 <= c)%N /\ 1 <= w /\ w <= length (b :: r) /\ forallb (fun x => 128 <=? x)%N (firstn w (b :: r)) = true).
Proof.
  unfold decode. destruct (N.ltb_spec b 128) as [Hb|Hb]; [left; split; [exact Hb|reflexivity]|right; split; [exact Hb|]].
  assert (Hc : forall x, is_cont x = true -> (128 <=? x)%N = true) by (intros x H; apply andb_prop in H; apply H).
  assert (Hb' : (128 <=? b)%N = true) by (apply N.leb_le; exact Hb).
  (* invalid or truncated: the error rune, one byte wide *)
  assert (Herr : (128 <= rune_error)%N /\ 1 <= 1 /\ 1 <= length (b :: r) /\
                 forallb (fun x => 128 <=? x)%N (firstn 1 (b :: r)) = true).
  { cbn [firstn forallb length]. rewrite Hb'. repeat split; [discriminate|lia..]. }
  (* complete: every byte >= 128 by its range test *)
  destruct (in_range 194 223 b) eqn:E2.
  { destruct r as [|b1 r]; [exact Herr|]. destruct (is_cont b1) eqn:C1; [|exact Herr].
    cbn [firstn forallb length]. rewrite Hb', (Hc _ C1). clear Herr Hc. unfold in_range in E2. repeat split; lia. }
  destruct (in_range 224 239 b) eqn:E3.
  { destruct r as [|b1 [|b2 r]]; try exact Herr. cbv zeta.
    destruct (in_range _ _ b1 && is_cont b2) eqn:E; [|exact Herr]. apply andb_prop in E as [E1 C2].
    cbn [firstn forallb length]. rewrite Hb', (Hc _ C2). clear Herr Hc E2. unfold in_range in E1, E3.
    destruct (b =? 224)%N eqn:E0; repeat split; lia. }
  destruct (in_range 240 244 b) eqn:E4; [|exact Herr].
  destruct r as [|b1 [|b2 [|b3 r]]]; try exact Herr. cbv zeta.
  destruct (in_range _ _ b1 && is_cont b2 && is_cont b3) eqn:E; [|exact Herr].
  apply andb_prop in E as [E C3]. apply andb_prop in E as [E1 C2].
  cbn [firstn forallb length]. rewrite Hb', (Hc _ C2), (Hc _ C3). clear Herr Hc E2 E3. unfold in_range in E1, E4.
  destruct (b =? 240)%N eqn:E0; repeat split; lia.
Qed.

Lemma ascii_decode b r : (b < 128)%N -> decode (b :: r) = (b, 1).
Proof. intros H. destruct (decode_cases b r) as [[_ E]|[H' _]]; [exact E|lia]. Qed.

Lemma decode_small b r c w : decode (b :: r) = (c, w) -> (c < 128)%N -> b = c /\ w = 1.
Proof.
  intros E Hc. destruct (decode_cases b r) as [[_ E']|[_ H]]; rewrite E in *; [injection E' as -> ->; auto|].
  destruct H as [H _]. lia.
Qed.

(** [lex1] tests the first rune against some twenty-five cases; they fall into nine shapes.
    [lex1_view l i]: [i] is the item at the head of the non-empty [l]. *)
Definition op2 : list (N * N * kind) :=
  [(61, 61, KEq); (61, 126, KCaseInsensitiveEq); (33, 61, KNE); (33, 126, KCaseInsensitiveNE);
   (60, 61, KLE); (62, 61, KGE)]%N.

Definition op1 : list (N * kind) :=
  [(44, KComma); (124, KPipe); (40, KLParen); (41, KRParen); (91, KLBracket); (93, KRBracket);
   (61, KAssign); (33, KError); (43, KPlus); (45, KMinus); (42, KStar); (47, KSlash); (37, KMod);
   (60, KLT); (62, KGT); (59, KSemi)]%N.

(** [c] after [b] starts a longer item: a two-byte operator or a comment *)
Definition extends (b c : N) : bool :=
  existsb (fun e => (b =? fst (fst e)) && (c =? snd (fst e)))%N op2 || ((b =? 47) && (c =? 47))%N.

Definition no_ext (b : N) (r : str) : Prop := match r with c :: _ => extends b c = false | [] => True end.

Definition bad_rune (c : N) : Prop :=
  is_ident_start c = false /\ (is_digit c || (c =? 46)%N) = false /\
  forallb (fun h => negb (c =? h)%N) ([34; 39; 96]%N ++ map fst op1) = true.

Inductive lex1_view : str -> item -> Prop :=
| v_space l : l <> [] -> is_space (fst (decode l)) = true -> lex1_view l (Skip (snd (decode l)))
| v_ident b r : is_ident_start b = true -> lex1_view (b :: r) (lex_ident (b :: r))
| v_number b r : (is_digit b || (b =? 46)%N) = true -> lex1_view (b :: r) (lex_number (b :: r))
| v_string q r : q = 34%N \/ q = 39%N -> lex1_view (q :: r) (lex_string (q :: r))
| v_quoted r : lex1_view (96%N :: r) (lex_quoted (96%N :: r))
| v_comment r : lex1_view (47%N :: 47%N :: r) (Skip (2 + comment_len r))
| v_op2 b c k r : In (b, c, k) op2 -> lex1_view (b :: c :: r) (Tok k [] 2)
| v_op1 b k r : In (b, k) op1 -> no_ext b r -> lex1_view (b :: r) (Tok k [] 1)
| v_bad l : l <> [] -> is_space (fst (decode l)) = false -> bad_rune (fst (decode l)) ->
    lex1_view l (Tok KError [] (snd (decode l))).

Lemma ident_start_ascii c : is_ident_start c = true -> (c < 128)%N.
Proof. unfold is_ident_start, is_alpha, in_range. lia. Qed.

Lemma lex1_view_eq l i : lex1_view l i -> lex1 l = i.
Proof.
  destruct 1 as [l Hne Hs|b r Hb|b r Hb|q r Hq|r|r|b c k r Hin|b k r Hin Hr|l Hne Hs (Hi & Hd & Hb)].
  - destruct l as [|b r]; [congruence|]. unfold lex1. destruct (decode (b :: r)) as [c w]. cbn [fst snd] in *. rewrite Hs. reflexivity.
  - unfold lex1. rewrite ascii_decode by (apply ident_start_ascii, Hb).
    replace (is_space b) with false by (unfold is_ident_start, is_alpha, is_space, in_range in *; lia).
    rewrite Hb. reflexivity.
  - unfold lex1. rewrite ascii_decode by (unfold is_digit, in_range in Hb; lia).
    replace (is_space b) with false by (unfold is_digit, is_space, in_range in *; lia).
    replace (is_ident_start b) with false by (unfold is_digit, is_ident_start, is_alpha, in_range in *; lia).
    rewrite Hb. reflexivity.
  - destruct Hq as [-> | ->]; reflexivity.
  - reflexivity.
  - reflexivity.
  - cbn [op2 In] in Hin. repeat destruct Hin as [[= <- <- <-]|Hin]; [reflexivity..|contradiction].
  - (* a second byte is tested only behind = ! / < > *)
    cbn [op1 In] in Hin.
    repeat destruct Hin as [[= <- <-]|Hin]; try contradiction; try reflexivity;
      (destruct r as [|c r']; [reflexivity|]); unfold no_ext, extends in Hr; cbn in Hr;
      unfold lex1; change (decode (?h :: c :: r')) with (h, 1); cbv beta iota;
      destruct (c =? 61)%N, (c =? 126)%N, (c =? 47)%N; try discriminate Hr; reflexivity.
  - destruct l as [|b r]; [congruence|]. unfold lex1. destruct (decode (b :: r)) as [c w]. cbn [fst snd] in *.
    rewrite Hs, Hi, Hd. cbn [op1 map fst app forallb] in Hb.
    repeat (apply andb_prop in Hb as [H Hb]; apply Bool.negb_true_iff in H; rewrite H; clear H).
    reflexivity.
Qed.

(** head byte looked up in [op1], the byte behind an operator in [op2] *)
Lemma lex1_view_total l : l <> [] -> exists i, lex1_view l i.
Proof.
  intros Hne. destruct (is_space (fst (decode l))) eqn:Es; [eexists; apply v_space; assumption|].
  pose proof (v_bad l Hne Es) as Vb. unfold bad_rune in Vb.
  destruct l as [|b r]; [congruence|]. destruct (decode (b :: r)) as [c w] eqn:Ed. cbn [fst snd] in *.
  destruct (N.ltb_spec c 128) as [Hc|Hc].
  2:{ (* outside ASCII *)
      eexists. apply Vb. repeat split; [unfold is_ident_start, is_alpha, in_range; lia|unfold is_digit, in_range; lia|].
      assert (Hlow : forallb (fun h => h <? 128)%N ([34; 39; 96]%N ++ map fst op1) = true) by reflexivity.
      rewrite forallb_forall in Hlow |- *. intros h Hh. specialize (Hlow h Hh). lia. }
  destruct (decode_small b r c w Ed Hc) as [-> ->]. clear Ed Hc.
  destruct (is_ident_start c) eqn:Ei; [eexists; apply v_ident; exact Ei|].
  destruct (is_digit c || (c =? 46)%N) eqn:En; [eexists; apply v_number; exact En|].
  destruct (N.eq_dec c 34) as [->|H34]; [eexists; apply v_string; auto|].
  destruct (N.eq_dec c 39) as [->|H39]; [eexists; apply v_string; auto|].
  destruct (N.eq_dec c 96) as [->|H96]; [eexists; apply v_quoted|].
  destruct (find (fun e => (c =? fst e)%N) op1) as [[h k]|] eqn:Ef.
  - (* an operator byte *)
    apply find_some in Ef as [Hin E]. apply N.eqb_eq in E. cbn [fst] in E. subst h.
    destruct r as [|c2 r']; [eexists; apply (v_op1 c k); [exact Hin|exact I]|].
    destruct (extends c c2) eqn:Ex; [|eexists; apply (v_op1 c k); assumption].
    unfold extends in Ex. apply Bool.orb_true_iff in Ex as [Ex|Ex].
    + apply existsb_exists in Ex as ([[h c3] k2] & Hin2 & E). cbn [fst snd] in E.
      apply andb_prop in E as [E1 E2]. apply N.eqb_eq in E1, E2. subst h c3. eexists. apply v_op2. exact Hin2.
    + apply andb_prop in Ex as [E1 E2]. apply N.eqb_eq in E1, E2. subst c c2. eexists. apply v_comment.
  - eexists. apply Vb. repeat split. cbn [app forallb].
    apply N.eqb_neq in H34, H39, H96. rewrite H34, H39, H96.
    apply forallb_forall. intros h Hh. apply in_map_iff in Hh as (e & <- & He). rewrite (find_none _ _ Ef e He). reflexivity.
Qed.

Lemma lex1_viewP l : l <> [] -> lex1_view l (lex1 l).
Proof. intros Hne. destruct (lex1_view_total l Hne) as [i V]. rewrite (lex1_view_eq l i V). exact V. Qed.

Lemma keyword_kind_in s k : keyword_kind s = Some k -> In k (map snd keywords).
Proof.
  unfold keyword_kind. induction keywords as [|[w k0] t IH]; cbn [assoc_str map snd In]; [discriminate|].
  destruct (str_eqb w s); [intros [= ->]; left; reflexivity|right; apply IH; assumption].
Qed.

(** [lex_number]: 0x/0X starts a hexadecimal literal; a point no digit follows is a token of its
    own; anything else is a decimal literal. *)
Definition hex_start (l : str) : bool :=
  match l with z :: x :: _ => ((z =? 48) && ((x =? 120) || (x =? 88)))%N | _ => false end.

Definition lone_dot (l : str) : bool :=
  match l with
  | d :: c :: _ => (d =? 46)%N && negb (is_digit c)
  | [d] => (d =? 46)%N
  | [] => false
  end.

Definition hex_item (r : str) : item :=
  let ds := take_while is_hex_digit r in
  match ds with
  | [] => Tok KError [] 2
  | _ :: _ => if (hex_value ds <? two64)%N then Tok KNumber (N_to_dec (hex_value ds)) (2 + length ds)
              else Tok KError [] (2 + length ds)
  end.

Lemma lex_number_eq c r :
  lex_number (c :: r) =
  if hex_start (c :: r) then hex_item (skipn 2 (c :: r))
  else if lone_dot (c :: r) then Tok KDot [] 1
  else let n := S (digits_len (c =? 46)%N r) in Tok KNumber (normalize_number (firstn n (c :: r))) n.
Proof.
  unfold lex_number, hex_start, lone_dot. destruct (c =? 48)%N eqn:E0.
  - apply N.eqb_eq in E0. subst c. destruct r as [|c1 r1]; [reflexivity|]. cbn [N.eqb Pos.eqb andb skipn digits_len negb].
    destruct (c1 =? 46)%N eqn:E1; [apply N.eqb_eq in E1; subst c1; reflexivity|].
    destruct ((c1 =? 101)%N || (c1 =? 69)%N) eqn:E2.
    { replace ((c1 =? 120)%N || (c1 =? 88)%N) with false by lia. replace (is_digit c1) with false by (unfold is_digit, in_range; lia). reflexivity. }
    destruct ((c1 =? 120)%N || (c1 =? 88)%N); [reflexivity|]. destruct (is_digit c1); reflexivity.
  - replace (hex_start (c :: r)) with false by (destruct r; cbn; rewrite ?E0; reflexivity). fold (hex_start (c :: r)).
    destruct (c =? 46)%N eqn:E1; [|destruct r; reflexivity].
    destruct r as [|d r1]; [reflexivity|]. cbn [andb digits_len negb]. rewrite Bool.andb_false_r.
    destruct (is_digit d); reflexivity.
Qed.

Lemma hex_item_len r : item_len (hex_item r) = 2 + length (take_while is_hex_digit r).
Proof. unfold hex_item. destruct (take_while is_hex_digit r); [reflexivity|]. destruct (_ <? _)%N; reflexivity. Qed.

(** in the decimal case the first byte is counted among the digits *)
Inductive number_view : str -> item -> Prop :=
| nv_hex x r : x = 120%N \/ x = 88%N -> number_view (48%N :: x :: r)
    (let ds := take_while is_hex_digit r in
     match ds with
     | [] => Tok KError [] 2
     | _ :: _ => if (hex_value ds <? two64)%N then Tok KNumber (N_to_dec (hex_value ds)) (2 + length ds)
                 else Tok KError [] (2 + length ds)
     end)
| nv_dot r : match r with d :: _ => is_digit d = false | [] => True end -> number_view (46%N :: r) (Tok KDot [] 1)
| nv_dec l : 1 <= digits_len false l ->
    number_view l (Tok KNumber (normalize_number (firstn (digits_len false l) l)) (digits_len false l)).

Lemma lex_number_viewP c r : (is_digit c || (c =? 46)%N) = true -> number_view (c :: r) (lex_number (c :: r)).
Proof.
  intros Hc. rewrite lex_number_eq. destruct (hex_start (c :: r)) eqn:Eh.
  - destruct r as [|x r']; [discriminate|]. cbn [hex_start] in Eh. replace c with 48%N by lia. apply nv_hex. lia.
  - destruct (lone_dot (c :: r)) eqn:Ed.
    + replace c with 46%N by (destruct r; cbn [lone_dot] in Ed; lia). apply nv_dot.
      destruct r as [|d r']; [exact I|]. cbn [lone_dot] in Ed. lia.
    + assert (E : digits_len false (c :: r) = S (digits_len (c =? 46)%N r)).
      { cbn [digits_len negb]. rewrite Bool.andb_true_r. destruct (c =? 46)%N; [reflexivity|].
        rewrite Bool.orb_false_r in Hc. rewrite Hc. reflexivity. }
      rewrite <- E. apply nv_dec. lia.
Qed.

Lemma lex_ident_tok b r : exists k v n, lex_ident (b :: r) = Tok k v n /\ In k (KIdentifier :: map snd keywords).
Proof.
  unfold lex_ident. destruct (keyword_kind _) as [k|] eqn:E; do 3 eexists; (split; [reflexivity|]).
  - right. exact (keyword_kind_in _ _ E).
  - left. reflexivity.
Qed.

Lemma lex_number_tok c r : exists k v n, lex_number (c :: r) = Tok k v n /\ In k [KNumber; KDot; KError].
Proof.
  rewrite lex_number_eq. unfold hex_item.
  destruct (hex_start _); [destruct (take_while _ _); [|destruct (_ <? _)%N]|destruct (lone_dot _)];
    do 3 eexists; (split; [reflexivity|cbn; auto]).
Qed.

Lemma lex_string_tok q r : exists k v n, lex_string (q :: r) = Tok k v n /\ In k [KString; KError].
Proof. unfold lex_string. destruct (string_body _ _ _ _) as [[v|] n]; do 3 eexists; (split; [reflexivity|cbn; auto]). Qed.

Lemma lex_quoted_tok q r : exists k v n, lex_quoted (q :: r) = Tok k v n /\ In k [KQuotedIdentifier; KError].
Proof. unfold lex_quoted. destruct (quoted_body _ _) as [[v|] n]; do 3 eexists; (split; [reflexivity|cbn; auto]). Qed.

(** One round of [string_body] reads one element: the closing quote, an error, or a chunk of the
    value (after an escape the flag is set). *)
Inductive selem := SClose (w : nat) | SErr (w : nat) | SChunk (out : str) (w : nat) (esc : bool).

Definition str_elem (q : N) (l : str) : selem :=
  let '(c, w) := decode l in
  if (c =? q)%N then SClose w
  else if (c =? 10)%N then SErr 0
  else if (c =? 92)%N then
    let l1 := skipn w l in
    match l1 with
    | [] => SErr w
    | _ :: _ =>
      let '(c2, w2) := decode l1 in
      if (c2 =? 10)%N then SErr w
      else SChunk (if (c2 =? 110)%N then [10%N] else if (c2 =? 116)%N then [9%N] else firstn w2 l1) (w + w2) true
    end
  else SChunk (firstn w l) w false.

Lemma string_body_step f q esc l : l <> [] ->
  string_body (S f) q esc l =
  match str_elem q l with
  | SClose w => (Some [], w)
  | SErr w => (None, w)
  | SChunk out w e => let '(o, n) := string_body f q (e || esc) (skipn w l) in (option_map (app out) o, w + n)
  end.
Proof.
  destruct l as [|c0 r0]; [congruence|]. intros _. cbn [string_body]. unfold str_elem.
  destruct (decode (c0 :: r0)) as [c w].
  destruct (c =? q)%N; [reflexivity|]. destruct (c =? 10)%N; [reflexivity|].
  destruct (c =? 92)%N; [|reflexivity]. cbv zeta.
  destruct (skipn w (c0 :: r0)) as [|c1 r1] eqn:Es; [reflexivity|].
  destruct (decode (c1 :: r1)) as [c2 w2]. destruct (c2 =? 10)%N; [reflexivity|].
  replace (skipn (w + w2) (c0 :: r0)) with (skipn w2 (c1 :: r1)) by (rewrite <- Es, skipn_skipn_add; f_equal; lia).
  reflexivity.
Qed.

(** No item crosses a line end: every loop stops at a newline at the latest.  [comment_len l]:
    the rest of the line, newline included. *)
Lemma comment_len_le l : comment_len l <= length l.
Proof. induction l as [|c r IH]; simpl; [lia|]. destruct (c =? 10)%N; lia. Qed.

Lemma comment_len_pos l : l <> [] -> 1 <= comment_len l.
Proof. destruct l as [|c r]; [congruence|]. intros _. cbn [comment_len]. destruct (c =? 10)%N; lia. Qed.

Lemma comment_len_cons_ne c r : c <> 10%N -> comment_len (c :: r) = S (comment_len r).
Proof. intros H. cbn [comment_len]. apply N.eqb_neq in H. rewrite H. reflexivity. Qed.

Lemma comment_len_hi w : forall l, forallb (fun x => 128 <=? x)%N (firstn w l) = true -> w <= length l ->
  comment_len l = w + comment_len (skipn w l).
Proof.
  induction w as [|w IH]; intros l H Hw; [reflexivity|].
  destruct l as [|c r]; [cbn [length] in Hw; lia|]. cbn [firstn forallb length skipn] in *.
  apply andb_prop in H as [Hc Hr]. rewrite comment_len_cons_ne by lia. rewrite (IH r Hr) by lia. reflexivity.
Qed.

Lemma take_while_line p l : p 10%N = false -> length (take_while p l) <= comment_len l.
Proof.
  intros Hp. induction l as [|c r IH]; cbn [take_while length]; [lia|].
  destruct (p c) eqn:E; cbn [length]; [|lia].
  rewrite comment_len_cons_ne by (intros ->; congruence). lia.
Qed.

Lemma comment_len_app_nl a b : comment_len (a ++ 10%N :: b) <= S (length a).
Proof. induction a as [|c a IH]; [cbn; lia|]. cbn [app comment_len length]. destruct (c =? 10)%N; lia. Qed.

Lemma decode_line l : l <> [] -> let '(c, w) := decode l in
  1 <= w <= comment_len l /\ (c <> 10%N -> comment_len l = w + comment_len (skipn w l)).
Proof.
  destruct l as [|b r]; [congruence|]. intros _.
  pose proof (comment_len_pos (b :: r) ltac:(discriminate)) as Hp.
  destruct (decode_cases b r) as [[Hb ->]|[Hb H]].
  - split; [lia|]. intros Hc. apply (comment_len_cons_ne b r Hc).
  - destruct (decode (b :: r)) as [c w]. destruct H as (_ & H1 & H2 & H3).
    pose proof (comment_len_hi w (b :: r) H3 H2). split; [lia|auto].
Qed.

Lemma decode_width l : l <> [] -> 1 <= snd (decode l) <= length l.
Proof.
  intros Hne. pose proof (decode_line l Hne) as H. pose proof (comment_len_le l).
  destruct (decode l) as [c w]. cbn [snd]. lia.
Qed.

Lemma exponent_len_line l : exponent_len l <= comment_len l.
Proof.
  unfold exponent_len. destruct l as [|e r]; [lia|].
  destruct ((e =? 101)%N || (e =? 69)%N) eqn:Ee; [|lia].
  destruct r as [|sg r']; [lia|].
  destruct ((sg =? 43)%N || (sg =? 45)%N) eqn:Es.
  - destruct r' as [|d r'']; [lia|]. destruct (is_digit d); [|lia].
    pose proof (take_while_line is_digit (d :: r'') eq_refl).
    do 2 rewrite comment_len_cons_ne by lia. lia.
  - destruct (is_digit sg) eqn:Ed; [|lia].
    pose proof (take_while_line is_digit (sg :: r') eq_refl).
    rewrite comment_len_cons_ne by lia. lia.
Qed.

Lemma digits_len_line l : forall d, digits_len d l <= comment_len l.
Proof.
  induction l as [|c r IH]; intros d; [simpl; lia|].
  cbn [digits_len]. destruct ((c =? 46)%N && negb d) eqn:E1.
  - specialize (IH true). rewrite comment_len_cons_ne by lia. lia.
  - destruct (is_digit c) eqn:E2.
    + specialize (IH d). unfold is_digit, in_range in E2. rewrite comment_len_cons_ne by lia. lia.
    + apply exponent_len_line.
Qed.

Lemma digits_len_le l d : digits_len d l <= length l.
Proof. pose proof (digits_len_line l d). pose proof (comment_len_le l). lia. Qed.

Lemma quoted_body_line f : forall l, snd (quoted_body f l) <= comment_len l.
Proof.
  induction f as [|f IH]; intros l; [simpl; lia|].
  destruct l as [|c r]; [simpl; lia|]. cbn [quoted_body].
  pose proof (comment_len_pos (c :: r) ltac:(discriminate)) as Hp.
  destruct (c =? 96)%N eqn:E.
  - destruct r as [|c2 r2]; [cbn [snd]; lia|]. destruct (c2 =? 96)%N eqn:E2; [|cbn [snd]; lia].
    specialize (IH r2). destruct (quoted_body f r2) as [o n]. cbn [snd] in *.
    do 2 rewrite comment_len_cons_ne by lia. lia.
  - destruct (c =? 10)%N eqn:E10; [cbn [snd]; lia|].
    specialize (IH r). destruct (quoted_body f r) as [o n]. cbn [snd] in *.
    rewrite comment_len_cons_ne by lia. lia.
Qed.

Lemma str_elem_line q l : l <> [] ->
  match str_elem q l with
  | SClose w => 1 <= w <= comment_len l
  | SErr w => w <= comment_len l
  | SChunk _ w _ => 1 <= w /\ comment_len l = w + comment_len (skipn w l)
  end.
Proof.
  intros Hne. unfold str_elem. pose proof (decode_line l Hne) as Hd.
  destruct (decode l) as [c w]. destruct Hd as [Hw Heq].
  destruct (c =? q)%N; [exact Hw|]. destruct (c =? 10)%N eqn:E10; [lia|].
  specialize (Heq ltac:(lia)).
  destruct (c =? 92)%N; [|split; [lia|exact Heq]]. cbv zeta.
  destruct (skipn w l) as [|c1 r1] eqn:Es; [lia|].
  pose proof (decode_line (c1 :: r1) ltac:(discriminate)) as Hd1.
  destruct (decode (c1 :: r1)) as [c2 w2]. destruct Hd1 as [Hw1 Heq1].
  destruct (c2 =? 10)%N eqn:E2; [lia|]. specialize (Heq1 ltac:(lia)).
  split; [lia|]. replace (skipn (w + w2) l) with (skipn w2 (c1 :: r1)) by (rewrite <- Es, skipn_skipn_add; f_equal; lia). lia.
Qed.

Lemma string_body_line f q : forall esc l, snd (string_body f q esc l) <= comment_len l.
Proof.
  induction f as [|f IH]; intros esc l; [simpl; lia|].
  destruct l as [|c0 r0]; [simpl; lia|].
  assert (Hne : c0 :: r0 <> []) by discriminate.
  rewrite string_body_step by exact Hne. pose proof (str_elem_line q _ Hne) as He.
  destruct (str_elem q (c0 :: r0)) as [w|w|out w e]; cbn [snd]; [lia|lia|].
  specialize (IH (e || esc) (skipn w (c0 :: r0))).
  destruct (string_body f q (e || esc) _) as [o n]. cbn [snd] in *. lia.
Qed.

Lemma lex_number_line c r : (is_digit c || (c =? 46)%N) = true ->
  1 <= item_len (lex_number (c :: r)) <= comment_len (c :: r).
Proof.
  intros Hc. destruct (lex_number_viewP c r Hc) as [x r' Hx|r' _|l H1].
  - pose proof (take_while_line is_hex_digit r' eq_refl) as Ht. do 2 rewrite comment_len_cons_ne by lia.
    cbv zeta. destruct (take_while is_hex_digit r') as [|h hs]; [cbn [item_len]; lia|].
    destruct (_ <? _)%N; cbn [item_len]; lia.
  - pose proof (comment_len_pos (46%N :: r') ltac:(discriminate)). cbn [item_len]. lia.
  - pose proof (digits_len_line l false). cbn [item_len]. lia.
Qed.

Theorem lex1_line l : l <> [] -> 1 <= item_len (lex1 l) <= comment_len l.
Proof.
  intros Hne. generalize (lex1_viewP l Hne). generalize (lex1 l). intros i V.
  destruct V as [l _ Hs|b r Hb|b r Hb|q r Hq|r|r|b c k r Hin|b k r Hin Hr|l _ Hs Hb].
  - pose proof (decode_line l Hne) as H. destruct (decode l). cbn [item_len snd]. lia.
  - unfold lex_ident. pose proof (take_while_line is_ident_char r eq_refl).
    rewrite comment_len_cons_ne by (unfold is_ident_start, is_alpha, in_range in Hb; lia).
    destruct (keyword_kind _); cbn [item_len length]; lia.
  - apply lex_number_line. exact Hb.
  - unfold lex_string. pose proof (string_body_line (S (length r)) q false r). rewrite comment_len_cons_ne by lia.
    destruct (string_body _ _ _ _) as [[v|] n]; cbn [item_len snd] in *; lia.
  - unfold lex_quoted. pose proof (quoted_body_line (length (96%N :: r)) r). rewrite comment_len_cons_ne by lia.
    destruct (quoted_body _ _) as [[v|] n]; cbn [item_len snd] in *; lia.
  - do 2 rewrite comment_len_cons_ne by lia. cbn [item_len]. lia.
  - cbn [op2 In] in Hin. repeat destruct Hin as [[= <- <- <-]|Hin]; try contradiction; cbn; lia.
  - pose proof (comment_len_pos _ Hne). cbn [item_len]. lia.
  - pose proof (decode_line l Hne) as H. destruct (decode l). cbn [item_len snd]. lia.
Qed.

Theorem lex1_progress l : l <> [] -> 1 <= item_len (lex1 l) <= length l.
Proof. intros Hne. pose proof (lex1_line l Hne). pose proof (comment_len_le l). lia. Qed.

Lemma quoted_body_fuel : forall f1 f2 l, length l < f1 -> length l < f2 -> quoted_body f1 l = quoted_body f2 l.
Proof.
  induction f1 as [|f1 IH]; intros f2 l H1 H2; [lia|]. destruct f2 as [|f2]; [lia|].
  destruct l as [|c r]; [reflexivity|]. cbn [quoted_body]. cbn [length] in *.
  destruct (c =? 96)%N.
  - destruct r as [|c2 r2]; [reflexivity|]. destruct (c2 =? 96)%N; [|reflexivity].
    rewrite (IH f2 r2) by (cbn [length] in *; lia). reflexivity.
  - destruct (c =? 10)%N; [reflexivity|]. rewrite (IH f2 r) by lia. reflexivity.
Qed.

Lemma string_body_fuel q : forall f1 f2 esc l, length l < f1 -> length l < f2 ->
  string_body f1 q esc l = string_body f2 q esc l.
Proof.
  induction f1 as [|f1 IH]; intros f2 esc l H1 H2; [lia|]. destruct f2 as [|f2]; [lia|].
  destruct l as [|c0 r0]; [reflexivity|].
  assert (Hne : c0 :: r0 <> []) by discriminate.
  rewrite !string_body_step by exact Hne. pose proof (str_elem_line q _ Hne) as He.
  destruct (str_elem q (c0 :: r0)) as [w|w|out w e]; [reflexivity|reflexivity|].
  rewrite (IH f2) by (rewrite skipn_length; cbn [length] in *; lia). reflexivity.
Qed.

Theorem scan_from_fuel f1 : forall f2 off l, length l < f1 -> length l < f2 ->
  scan_from f1 off l = scan_from f2 off l.
Proof.
  induction f1 as [|f1 IH]; intros f2 off l H1 H2; [lia|].
  destruct f2 as [|f2]; [lia|]. cbn [scan_from].
  destruct l as [|b r]; [reflexivity|]. set (l := b :: r) in *.
  assert (Hne : l <> []) by (subst l; congruence).
  pose proof (lex1_progress l Hne) as Hp.
  assert (Hs : length (skipn (item_len (lex1 l)) l) < f1) by (rewrite skipn_length; lia).
  assert (Hs2 : length (skipn (item_len (lex1 l)) l) < f2) by (rewrite skipn_length; lia).
  destruct (lex1 l) as [k v n|n]; cbn [item_len] in *.
  - f_equal. apply IH; assumption.
  - apply IH; assumption.
Qed.

(** ** the scan loop without its fuel *)
Definition scan_at (off : nat) (l : str) : list token := scan_from (S (length l)) off l.

Lemma scan_from_at f off l : length l < f -> scan_from f off l = scan_at off l.
Proof. intros H. apply scan_from_fuel; [exact H|lia]. Qed.

Lemma scan_at_nil off : scan_at off [] = [].
Proof. reflexivity. Qed.

Lemma scan_at_step off l : l <> [] ->
  scan_at off l =
  match lex1 l with
  | Tok k v n => mkTok k off (n + off) v :: scan_at (n + off) (skipn n l)
  | Skip n => scan_at (n + off) (skipn n l)
  end.
Proof.
  intros Hne. pose proof (lex1_progress l Hne) as Hp. unfold scan_at at 1.
  destruct l as [|b r]; [congruence|]. cbn [scan_from]. set (l := b :: r) in *.
  destruct (lex1 l) as [k v n|n]; cbn [item_len] in Hp; [f_equal|]; apply scan_from_at; rewrite skipn_length; lia.
Qed.

Lemma scan_at_ind (P : nat -> str -> list token -> Prop) :
  (forall off, P off [] []) ->
  (forall off l k v n ts, l <> [] -> lex1 l = Tok k v n -> 1 <= n <= length l ->
     P (n + off) (skipn n l) ts -> P off l (mkTok k off (n + off) v :: ts)) ->
  (forall off l n ts, l <> [] -> lex1 l = Skip n -> 1 <= n <= length l ->
     P (n + off) (skipn n l) ts -> P off l ts) ->
  forall off l, P off l (scan_at off l).
Proof.
  intros H0 Ht Hs off l. remember (length l) as m eqn:Em. revert off l Em.
  induction m as [m IH] using lt_wf_ind. intros off l ->.
  destruct l as [|b r]; [apply H0|]. set (l := b :: r) in *.
  assert (Hne : l <> []) by (subst l; congruence).
  pose proof (lex1_progress l Hne) as Hp. rewrite scan_at_step by exact Hne.
  destruct (lex1 l) as [k v n|n] eqn:E; cbn [item_len] in Hp; [apply Ht|apply (Hs off l n)]; try assumption;
    apply (IH (length (skipn n l))); try reflexivity; rewrite skipn_length; lia.
Qed.

(** tokens are in order, non-empty, and inside [lo, hi] *)
Inductive toks_within : nat -> nat -> list token -> Prop :=
| tw_nil lo hi : lo <= hi -> toks_within lo hi []
| tw_cons lo hi t ts : lo <= tstart t -> tstart t < tend t -> tend t <= hi ->
    toks_within (tend t) hi ts -> toks_within lo hi (t :: ts).

Lemma toks_within_weaken lo lo' hi ts : lo' <= lo -> toks_within lo hi ts -> toks_within lo' hi ts.
Proof. intros H W. destruct W; constructor; try lia; assumption. Qed.

Lemma toks_within_le lo hi ts : toks_within lo hi ts -> lo <= hi.
Proof. induction 1; lia. Qed.

Lemma toks_within_start lo hi ts t : toks_within lo hi ts -> In t ts -> lo <= tstart t.
Proof.
  induction 1 as [|lo hi t0 ts H1 H2 H3 W IH]; [intros []|].
  intros [<-|Hin]; [exact H1|]. specialize (IH Hin). lia.
Qed.

Theorem scan_at_within : forall off l, toks_within off (off + length l) (scan_at off l).
Proof.
  apply (scan_at_ind (fun off l ts => toks_within off (off + length l) ts)).
  - intros off. constructor. lia.
  - intros off l k v n ts _ _ Hn IH. rewrite skipn_length in IH.
    constructor; cbn [tstart tend]; try lia. replace (off + length l) with (n + off + (length l - n)) by lia. exact IH.
  - intros off l n ts _ _ Hn IH. rewrite skipn_length in IH.
    apply toks_within_weaken with (lo := n + off); [lia|].
    replace (off + length l) with (n + off + (length l - n)) by lia. exact IH.
Qed.

Theorem scan_within s : toks_within 0 (length s) (scan s).
Proof. apply (scan_at_within 0 s). Qed.
