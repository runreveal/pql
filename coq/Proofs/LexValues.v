(** * Values of string and number literals (properties C04 and C09, Props/C04.v, Props/C09.v): a
    string written with the escapes [\\], [\q], [\n] lexes back to exactly its bytes, and each
    documented escape decodes as documented; the normalised spelling of a number token denotes the
    same number as the source text. *)
From Coq Require Import Lia ZifyBool QArith String.
From PQL Require Import Model.Lexer Spec.NumValue Spec.SqlLex.
From PQL Require Import Proofs.LexerFacts Proofs.LexCut Proofs.LexSpec Proofs.LexTokOk Proofs.SplitFacts Proofs.SqlGlue.
Local Open Scope nat_scope.
Local Open Scope list_scope.
Local Notation length := List.length (only parsing).

(** the PQL spelling of a value inside quotes [q]: quote and backslash escaped, newline written [\n] *)
Fixpoint str_escape (q : N) (s : str) : str :=
  match s with
  | [] => []
  | c :: r =>
    if ((c =? q) || (c =? 92))%N then 92%N :: c :: str_escape q r
    else if (c =? 10)%N then 92%N :: 110%N :: str_escape q r
    else c :: str_escape q r
  end.
Definition str_quote (q : N) (s : str) : str := q :: str_escape q s ++ [q].

Definition hi (c : N) : bool := (128 <=? c)%N.

Lemma decode_hi c t : (128 <= c)%N ->
  let '(c', w) := decode (c :: t) in
  (128 <= c')%N /\ 1 <= w /\ w <= length (c :: t) /\ forallb hi (firstn w (c :: t)) = true.
Proof.
  intros Hc. destruct (decode_cases c t) as [[H _]|[_ H]]; [lia|exact H].
Qed.

Lemma esc_hi_prefix q (Hq : (q < 128)%N) : forall k s rest,
  forallb hi (firstn k (str_escape q s ++ q :: rest)) = true -> k <= length (str_escape q s ++ q :: rest) ->
  k <= length s /\ firstn k (str_escape q s ++ q :: rest) = firstn k s /\
  skipn k (str_escape q s ++ q :: rest) = str_escape q (skipn k s) ++ q :: rest.
Proof.
  induction k as [|k IH]; intros s rest H Hl; [cbn; repeat split; lia|].
  destruct s as [|c r].
  - cbn [str_escape app firstn forallb] in H. unfold hi in H at 1. apply andb_prop in H as [H _]. lia.
  - cbn [str_escape] in *.
    destruct ((c =? q) || (c =? 92))%N eqn:E1.
    { cbn [app firstn forallb] in H. unfold hi in H at 1. apply andb_prop in H as [H _]. lia. }
    destruct (c =? 10)%N eqn:E2.
    { cbn [app firstn forallb] in H. unfold hi in H at 1. apply andb_prop in H as [H _]. lia. }
    cbn [app firstn forallb length skipn] in *. apply andb_prop in H as [_ H].
    destruct (IH r rest H ltac:(lia)) as (A & B & C). repeat split; [lia| |exact C]. f_equal. exact B.
Qed.

Lemma str_escape_hi q s : forallb hi s = true -> (q < 128)%N -> str_escape q s = s.
Proof.
  intros H Hq. induction s as [|c r IH]; [reflexivity|]. cbn [forallb] in H. apply andb_prop in H as [Hc Hr].
  unfold hi in Hc. cbn [str_escape].
  replace ((c =? q) || (c =? 92))%N with false by lia. replace (c =? 10)%N with false by lia. f_equal. auto.
Qed.

Lemma firstn_skipn_len {A} k (l : list A) : k <= length l -> length (firstn k l) = k.
Proof. intros. rewrite firstn_length. lia. Qed.

Lemma str_elem_escape q s rest : (q = 34 \/ q = 39)%N -> s <> [] ->
  exists k w e, 1 <= k /\ str_elem q (str_escape q s ++ q :: rest) = SChunk (firstn k s) w e /\
    skipn w (str_escape q s ++ q :: rest) = str_escape q (skipn k s) ++ q :: rest.
Proof.
  intros Hq Hne. destruct s as [|c r]; [congruence|]. clear Hne.
  destruct (c <? 128)%N eqn:E3.
  - (* an ASCII byte *)
    cbn [str_escape]. unfold str_elem.
    destruct ((c =? q) || (c =? 92))%N eqn:E1; [|destruct (c =? 10)%N eqn:E2].
    + exists 1, 2, true. cbn [app]. rewrite ascii_decode by lia. replace (92 =? q)%N with false by lia.
      cbn [N.eqb Pos.eqb skipn]. rewrite (ascii_decode c) by lia.
      replace (c =? 10)%N with false by lia. replace (c =? 110)%N with false by lia. replace (c =? 116)%N with false by lia.
      repeat split; lia.
    + exists 1, 2, true. apply N.eqb_eq in E2. subst c. cbn [app]. rewrite ascii_decode by lia. replace (92 =? q)%N with false by lia.
      cbn [N.eqb Pos.eqb skipn]. rewrite ascii_decode by lia. repeat split; lia.
    + exists 1, 1, false. cbn [app]. rewrite ascii_decode by lia.
      replace (c =? q)%N with false by lia. rewrite E2. replace (c =? 92)%N with false by lia. repeat split; lia.
  - (* a rune of bytes >= 128 *)
    pose proof (decode_hi c (str_escape q r ++ q :: rest) ltac:(lia)) as D.
    replace (c :: str_escape q r ++ q :: rest) with (str_escape q (c :: r) ++ q :: rest) in D
      by (cbn [str_escape]; replace ((c =? q) || (c =? 92))%N with false by lia; replace (c =? 10)%N with false by lia; reflexivity).
    unfold str_elem. destruct (decode _) as [c' w]. destruct D as (D1 & D2 & D3 & D4).
    destruct (esc_hi_prefix q ltac:(lia) w (c :: r) rest D4 D3) as (A & B & C).
    exists w, w, false. replace (c' =? q)%N with false by lia. replace (c' =? 10)%N with false by lia. replace (c' =? 92)%N with false by lia.
    rewrite B. repeat split; [exact D2|exact C].
Qed.

Lemma string_body_escape q (Hq' : (q = 34 \/ q = 39)%N) :
  forall n s, length s <= n -> forall rest f esc, length (str_escape q s ++ q :: rest) < f ->
  string_body f q esc (str_escape q s ++ q :: rest) = (Some s, S (length (str_escape q s))).
Proof.
  induction n as [|n IH]; intros s Hn rest f esc Hf; (destruct f as [|f]; [lia|]);
    rewrite string_body_step by apply LexCut.app_cons_not_nil;
    (destruct s as [|c r]; [cbn [str_escape app]; unfold str_elem; rewrite ascii_decode, N.eqb_refl by lia; reflexivity|]).
  { cbn [length] in Hn. lia. }
  set (s := c :: r) in *. set (l := str_escape q s ++ q :: rest) in *.
  destruct (str_elem_escape q s rest Hq' ltac:(discriminate)) as (k & w & e & Hk & He & Hs). fold l in He, Hs.
  pose proof (str_elem_line q l (LexCut.app_cons_not_nil _ _ _)) as Hl. pose proof (comment_len_le l). rewrite He in Hl |- *.
  assert (HL : length l = w + length (skipn w l)) by (rewrite skipn_length; lia).
  rewrite Hs in HL |- *. rewrite IH by (try rewrite skipn_length; subst s; cbn [length] in *; lia).
  cbn [option_map]. rewrite firstn_skipn. unfold l in HL. rewrite !app_length in HL. cbn [length] in HL. f_equal. lia.
Qed.

Lemma lex1_quote q r : (q = 34 \/ q = 39)%N -> lex1 (q :: r) = lex_string (q :: r).
Proof. intros Hq. apply lex1_view_eq, v_string, Hq. Qed.

(** round trip: the quoted spelling of any byte string lexes to one string token with that value *)
Theorem string_roundtrip q s rest : (q = 34 \/ q = 39)%N ->
  lex1 (str_quote q s ++ rest) = Tok KString s (length (str_quote q s)).
Proof.
  intros Hq. unfold str_quote. cbn [app]. rewrite lex1_quote by exact Hq. unfold lex_string.
  rewrite <- app_assoc. cbn [app].
  rewrite (string_body_escape q Hq (length s) s (le_n _)) by (cbn [length]; lia).
  cbn [length]. rewrite app_length. cbn [length]. f_equal. lia.
Qed.

(** [\n] newline, [\t] tab; a backslash before any other ASCII character stands for it *)
Theorem string_escape_table q c rest : (q = 34 \/ q = 39)%N -> (c < 128)%N -> c <> 10%N ->
  lex1 (q :: 92%N :: c :: q :: rest) =
  Tok KString [if (c =? 110)%N then 10%N else if (c =? 116)%N then 9%N else c] 4.
Proof.
  intros Hq Hc Hn. rewrite lex1_quote by exact Hq. unfold lex_string. cbn [length string_body].
  rewrite (ascii_decode 92) by lia. replace (92 =? q)%N with false by lia. cbn [N.eqb Pos.eqb skipn].
  rewrite (ascii_decode c) by lia. replace (c =? 10)%N with false by lia. cbn [firstn skipn].
  rewrite (ascii_decode q) by lia. rewrite N.eqb_refl. cbn [option_map].
  destruct (c =? 110)%N; [reflexivity|]. destruct (c =? 116)%N; reflexivity.
Qed.

(** an unescaped newline or the end of the text before the closing quote: an error token *)
Theorem string_unterminated q s : (q = 34 \/ q = 39)%N ->
  forallb (fun c => (c <? 128)%N && negb (c =? q)%N && negb (c =? 92)%N && negb (c =? 10)%N) s = true ->
  (exists n, lex1 (q :: s) = Tok KError [] n) /\ (forall rest, exists n, lex1 (q :: s ++ 10%N :: rest) = Tok KError [] n).
Proof.
  intros Hq H.
  assert (G : forall tail, (tail = [] \/ exists rest, tail = 10%N :: rest) -> forall f esc, length (s ++ tail) < f ->
          exists n, string_body f q esc (s ++ tail) = (None, n)).
  { intros tail Ht. induction s as [|c r IH]; intros f esc Hf; (destruct f as [|f]; [lia|]).
    - destruct Ht as [-> | [rest ->]]; [eexists; reflexivity|]. cbn [app].
      rewrite string_body_step by discriminate. unfold str_elem. rewrite ascii_decode by lia.
      replace (10 =? q)%N with false by lia. eexists; reflexivity.
    - cbn [forallb] in H. apply andb_prop in H as [Hc Hr]. cbn [app length] in *.
      rewrite string_body_step by discriminate. unfold str_elem. rewrite ascii_decode by lia.
      replace (c =? q)%N with false by lia. replace (c =? 10)%N with false by lia. replace (c =? 92)%N with false by lia.
      cbn [skipn]. destruct (IH Hr f (false || esc) ltac:(lia)) as [n ->]. eexists; reflexivity. }
  split.
  - rewrite lex1_quote by exact Hq. unfold lex_string.
    destruct (G [] (or_introl eq_refl) (S (length s)) false ltac:(rewrite app_nil_r; lia)) as [n E].
    rewrite app_nil_r in E. rewrite E. eexists; reflexivity.
  - intros rest. rewrite lex1_quote by exact Hq. unfold lex_string.
    destruct (G (10%N :: rest) (or_intror (ex_intro _ rest eq_refl)) (S (length (s ++ 10%N :: rest))) false ltac:(lia)) as [n E].
    rewrite E. eexists; reflexivity.
Qed.

Lemma digits_of_zeros k rest : digits_of (repeat 48%N k ++ rest) = repeat 48%N k ++ digits_of rest.
Proof. unfold digits_of. induction k as [|k IH]; cbn [repeat app take_while]; [reflexivity|]. rewrite IH. reflexivity. Qed.

Lemma after_digits_zeros k rest : after_digits (repeat 48%N k ++ rest) = after_digits rest.
Proof.
  unfold after_digits. rewrite digits_of_zeros, app_length, repeat_length.
  induction k as [|k IH]; cbn [repeat app Nat.add skipn]; [reflexivity|exact IH].
Qed.

Definition parts_from (ip r1 : str) : N * nat * Z :=
  let '(fp, r2) := match r1 with
                   | c :: t => if (c =? 46)%N then (digits_of t, after_digits t) else ([], r1)
                   | [] => ([], [])
                   end in
  let ex := match r2 with
            | e :: sg :: t =>
              if ((e =? 101) || (e =? 69))%N then
                if (sg =? 45)%N then (- Z.of_N (dec_value (digits_of t)))%Z
                else if (sg =? 43)%N then Z.of_N (dec_value (digits_of t))
                else Z.of_N (dec_value (digits_of (sg :: t)))
              else 0%Z
            | _ => 0%Z
            end in
  (dec_value (ip ++ fp), List.length fp, ex).

Lemma num_parts_from s : num_parts s = parts_from (digits_of s) (after_digits s).
Proof. reflexivity. Qed.

Lemma parts_from_zeros k ip r1 : parts_from (repeat 48%N k ++ ip) r1 = parts_from ip r1.
Proof.
  unfold parts_from. destruct (match r1 with [] => _ | c :: t => _ end) as [fp r2].
  rewrite <- app_assoc, dec_value_zeros. reflexivity.
Qed.

(** normalisation keeps mantissa, fraction length and exponent *)
Theorem normalize_parts s : num_parts (normalize_number s) = num_parts s.
Proof.
  destruct (normalize_spec s) as (k & rest & E & Hh & ->). subst s.
  rewrite (num_parts_from (_ ++ _)), digits_of_zeros, after_digits_zeros, parts_from_zeros, <- num_parts_from.
  destruct rest as [|c r].
  - reflexivity.
  - destruct ((c =? 46)%N || (c =? 101)%N || (c =? 69)%N) eqn:Ec; [|reflexivity].
    assert (Hd : is_digit c = false) by (unfold is_digit, in_range; lia).
    rewrite !num_parts_from. unfold after_digits, digits_of. cbn [take_while]. replace (is_digit 48) with true by reflexivity.
    cbn [take_while length skipn]. rewrite Hd. cbn [length skipn].
    apply (parts_from_zeros 1 []).
Qed.

Lemma digits_of_all d : forallb is_digit d = true -> digits_of d = d /\ after_digits d = [].
Proof.
  intros H. assert (A : digits_of d = d).
  { unfold digits_of. induction d as [|c r IH]; [reflexivity|]. cbn [forallb take_while] in *. apply andb_prop in H as [Hc Hr]. rewrite Hc, IH by exact Hr. reflexivity. }
  split; [exact A|]. unfold after_digits. rewrite A. apply skipn_all.
Qed.

Lemma num_parts_digits d : forallb is_digit d = true -> num_parts d = (dec_value d, 0, 0%Z).
Proof. intros H. unfold num_parts. destruct (digits_of_all d H) as [-> ->]. rewrite app_nil_r. reflexivity. Qed.

Lemma num_parts_digits_dec x : num_parts (N_to_dec x) = (x, 0, 0%Z).
Proof.
  rewrite num_parts_digits; [rewrite N_to_dec_value; reflexivity|].
  unfold N_to_dec. apply dec_digits_digits. reflexivity.
Qed.

Lemma forallb_digit_Forall d : Forall (fun c => is_digit c = true) d -> forallb is_digit d = true.
Proof. intros H. apply forallb_forall. apply Forall_forall. exact H. Qed.

(** a number token's value (the spelling handed to SQL) denotes what the source text denotes,
    decimal or hexadecimal *)
Theorem number_token_value l v n : lex_number l = Tok KNumber v n -> num_parts v = src_num_parts (firstn n l).
Proof.
  assert (Hsrc : forall t, src_num_parts t = if hex_start t then (hex_value (skipn 2 t), 0, 0%Z) else num_parts t)
    by (intros [|z [|x ds]]; reflexivity).
  destruct l as [|c r]; [discriminate|]. rewrite lex_number_eq, Hsrc.
  destruct (hex_start (c :: r)) eqn:Eh.
  - (* the digits read are the text behind "0x" *)
    destruct r as [|x r']; [discriminate|]. cbn [skipn]. unfold hex_item.
    destruct (take_while is_hex_digit r') as [|d ds] eqn:Ed; [discriminate|].
    destruct (_ <? _)%N; [|discriminate]. intros [= <- <-].
    rewrite !firstn_cons. change (hex_start (c :: x :: ?t)) with (hex_start (c :: x :: r')). rewrite Eh. cbv beta iota.
    change (S (length ds)) with (length (d :: ds)). rewrite <- Ed, take_while_prefix, Ed. apply num_parts_digits_dec.
  - destruct (lone_dot (c :: r)); [discriminate|]. intros [= <- <-].
    rewrite hex_start_firstn by exact Eh. apply normalize_parts.
Qed.

Theorem scanned_number_value s t : In t (scan s) -> tkind t = KNumber ->
  num_parts (tvalue t) = src_num_parts (slice s (tstart t) (tend t)).
Proof.
  intros Hin Hk. destruct (scan_items s t Hin) as (Hoff & Hlex & Hlt). rewrite Hk in Hlex.
  assert (Hne : skipn (tstart t) s <> []) by (intros E; rewrite E in Hlex; discriminate Hlex).
  destruct (lex1_ident_or_number _ _ _ _ Hne Hlex) as [_ Hn]. destruct (Hn eq_refl) as (b & r & El & _ & Hnum).
  unfold slice. apply number_token_value. exact Hnum.
Qed.

Corollary scanned_number_q s t : In t (scan s) -> tkind t = KNumber ->
  num_q (tvalue t) = src_num_q (slice s (tstart t) (tend t)).
Proof. intros Hin Hk. unfold num_q, src_num_q. rewrite (scanned_number_value s t Hin Hk). reflexivity. Qed.

Example num_q_examples :
  (num_q (L "12.50e-1") == 5 # 4)%Q /\ (src_num_q (L "0x1F") == 31 # 1)%Q /\ (num_q (L "0.5") == src_num_q (L "000.5"))%Q
  /\ num_parts (normalize_number (L ".5E3")) = (5%N, 1, 3%Z).
Proof. repeat split; vm_compute; reflexivity. Qed.

(** ** the accessors of number literals (IsInteger / IsFloat / Uint64) agree with the spelling *)

Lemma contains_any_false_in cs s c : contains_any cs s = false -> In c s -> existsb (N.eqb c) cs = false.
Proof.
  unfold contains_any. intros H Hin. destruct (existsb (N.eqb c) cs) eqn:E; [|reflexivity].
  assert (existsb (fun c0 => existsb (N.eqb c0) cs) s = true) by (apply existsb_exists; exists c; split; assumption). congruence.
Qed.

Lemma in_skipn {A} (x : A) k l : In x (skipn k l) -> In x l.
Proof. revert l. induction k as [|k IH]; intros [|y l] H; cbn [skipn] in H; try exact H; [right; apply IH; exact H]. Qed.

(** a number spelling without '.', 'e', 'E' is a non-empty run of digits *)
Lemma num_text_integer v : is_num_text v = true -> contains_any [46; 101; 69]%N v = false ->
  forallb is_digit v = true /\ v <> [].
Proof.
  unfold is_num_text. intros H Hc. apply andb_prop in H as [H _]. apply andb_prop in H as [Hlen Hhd]. apply Nat.eqb_eq in Hlen.
  split; [|destruct v; [discriminate|discriminate]].
  pose proof (take_while_prefix is_digit v) as Hp. pose proof (take_while_all is_digit v) as Ha.
  set (d1 := length (take_while is_digit v)) in *.
  unfold number_len in Hlen. fold d1 in Hlen.
  destruct (skipn d1 v) as [|c r] eqn:Es.
  - (* nothing after the digits *)
    assert (d1 = length v \/ d1 < length v)%nat as [E|E] by (unfold d1; pose proof (take_while_length is_digit v); lia).
    + rewrite E, firstn_all in Hp. rewrite Hp. exact Ha.
    + exfalso. assert (length (skipn d1 v) = length v - d1)%nat by apply skipn_length. rewrite Es in H. cbn [length] in H. lia.
  - (* the length equation forces '.', 'e' or 'E' *)
    exfalso.
    assert (Hin : In c v) by (apply (in_skipn c d1); rewrite Es; left; reflexivity).
    pose proof (contains_any_false_in _ _ c Hc Hin) as Hne. cbn [existsb] in Hne.
    assert (Hc46 : (c =? 46)%N = false) by lia. assert (Hce : ((c =? 101) || (c =? 69))%N = false) by lia.
    rewrite Hc46 in Hlen. cbn [Nat.eqb andb] in Hlen.
    destruct (Nat.eqb d1 0) eqn:Ed; cbn [andb] in Hlen.
    + apply Nat.eqb_eq in Ed. destruct v; [discriminate|]. cbn [length] in Hlen. lia.
    + cbn [skipn] in Hlen. rewrite Hce in Hlen.
      assert (length (skipn d1 v) = length v - d1)%nat by apply skipn_length. rewrite Es in H. cbn [length] in H. lia.
Qed.

Theorem number_accessors s t : In t (scan s) -> tkind t = KNumber ->
  lit_is_float KNumber (tvalue t) = negb (lit_is_integer KNumber (tvalue t)) /\
  (lit_is_integer KNumber (tvalue t) = true ->
     num_parts (tvalue t) = (dec_value (tvalue t), 0%nat, 0%Z) /\
     lit_uint64 KNumber (tvalue t) = Some (if (dec_value (tvalue t) <? two64)%N then dec_value (tvalue t) else 0%N)).
Proof.
  intros Hin Hk. split; [unfold lit_is_integer; destruct (lit_is_float KNumber (tvalue t)); reflexivity|].
  intros Hi. unfold lit_is_integer in Hi. apply Bool.negb_true_iff in Hi.
  pose proof (scan_tok_ok s) as Hok. unfold all_tok_ok in Hok. rewrite Forall_forall in Hok. destruct (Hok t Hin) as [Hn _]. specialize (Hn Hk).
  assert (Hc : contains_any [46; 101; 69]%N (tvalue t) = false) by exact Hi.
  destruct (num_text_integer _ Hn Hc) as [Hd Hne].
  split; [apply num_parts_digits; exact Hd|].
  unfold lit_uint64. rewrite Hi, Hd. destruct (tvalue t); [congruence|]. cbn [negb andb]. destruct (_ <? two64)%N; reflexivity.
Qed.
