(** * C07: Parse accepts exactly the token sequences of the programs of the grammar and returns the one
    program each stands for, by soundness (ParserSoundStmt.v) and completeness (ParserCompleteStmt.v). *)
From PQL Require Import Spec.Grammar Proofs.ParserSoundStmt Proofs.ParserCompleteStmt.

Theorem parse_gram s ss : parse s = ParseOk ss -> gprog ss = true.
Proof. intros H. exact (proj2 (parse_tokens_reads _ _ _ H)). Qed.

Theorem parse_characterised s ss : parse s = ParseOk ss <-> (toks_prog ss (scan s) /\ gprog ss = true).
Proof.
  split.
  - apply parse_tokens_reads.
  - intros [Ht Hg]. apply parse_complete; assumption.
Qed.
