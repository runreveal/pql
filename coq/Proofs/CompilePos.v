(** * Positions of compile errors lie inside the source (property C10, Props/C10.v).
    Compile attaches to an error the start of a span recorded in the tree (an identifier, a dotted
    name, the opening parenthesis of a call, a join kind, a second query).  For a parsed program
    these spans are token extents inside the source. *)
From PQL Require Import Model.Compile Spec.FlattenStmt Proofs.LexerFacts Proofs.ParserReject Proofs.SpanFacts
  Proofs.ExprInd Proofs.WriterEqns Proofs.SplitSteps.
From Coq Require Import Lia.
Local Open Scope list_scope.
Local Open Scope nat_scope.
Local Notation length := List.length (only parsing).

(** For a bound on positions the order of the tokens does not matter: kept of [toks_within] is
    that each token lies inside, which passes to any part of the list. *)
Definition toks_in (hi : nat) (ts : list token) : Prop := Forall (fun t => inside 0 hi (tok_span t)) ts.

Lemma within_toks_in lo hi ts : toks_within lo hi ts -> toks_in hi ts.
Proof.
  induction 1 as [|lo hi t ts H1 H2 H3 W IH]; constructor; [|exact IH].
  pose proof (toks_within_le _ _ _ W). cbn [tok_span inside]. lia.
Qed.

Lemma toks_in_part {hi ts part} : toks_in hi ts -> incl part ts -> toks_in hi part.
Proof. intros H Hp. exact (incl_Forall Hp H). Qed.

Section Pos.
Variable hi : nat.

Definition pb {A} (r : res A) : Prop := match r with Err (Some p) => p <= hi | _ => True end.
Definition eb (e : expr) : Prop := forall c w, pb (wx c w e).

Lemma pb_bind {A B} (r : res A) (f : A -> res B) : pb r -> (forall a, pb (f a)) -> pb (bind r f).
Proof. destruct r as [a|p]; cbn [bind]; intros H Hf; [apply Hf|exact H]. Qed.

Lemma pb_ok {A} (a : A) : pb (Ok a). Proof. exact I. Qed.

Lemma pb_map {A B} (r : res A) (g : A -> B) : pb r -> pb (do a <- r; Ok (g a)).
Proof. intros H. apply pb_bind; [exact H|intros; exact I]. Qed.

Lemma pb_wrap (b : bool) (r : res (list piece)) : pb r -> pb (wrapped b r).
Proof. intros H. destruct b; [apply pb_map|]; exact H. Qed.

Lemma pb_sequence {A} (l : list (res A)) : Forall pb l -> pb (sequence l).
Proof.
  induction 1 as [|x r Hx Hr IH]; cbn [sequence]; [exact I|].
  apply pb_bind; [exact Hx|]. intros a. apply pb_map, IH.
Qed.

Lemma pb_nth {A} (l : list (res (list A))) i : Forall pb l -> pb (nth i l (Ok [])).
Proof. intros H. revert i. induction H as [|x r Hx Hr IH]; intros [|i]; cbn [nth]; auto; exact I. Qed.

Lemma Forall_skipn {A} (P : A -> Prop) l i : Forall P l -> Forall P (skipn i l).
Proof. intros H. revert i. induction H as [|x r Hx Hr IH]; intros [|i]; cbn [skipn]; auto. Qed.

Lemma pb_fill t : forall args, Forall pb args -> pb (fill_template t args).
Proof.
  induction t as [|p r IH]; intros args H; cbn [fill_template]; [exact I|].
  destruct p as [s|mp i|i sep mp].
  - apply pb_map, IH, H.
  - apply pb_bind; [apply pb_nth; exact H|]. intros a. apply pb_map, IH, H.
  - apply pb_bind; [apply pb_sequence, Forall_skipn; exact H|]. intros a. apply pb_map, IH, H.
Qed.

Lemma span_start_inside lo sp : inside lo hi sp -> match span_start sp with Some a => a <= hi | None => True end.
Proof. destruct sp as [[a b]|]; cbn [inside span_start]; [|intros; exact I]. intros (H1 & H2 & H3). destruct (Nat.leb a b); [lia|exact I]. Qed.

Lemma pb_err_span {A} lo sp : inside lo hi sp -> pb (@Err A (span_start sp)).
Proof. intros H. unfold pb. pose proof (span_start_inside lo sp H) as S. destruct (span_start sp); exact S. Qed.

Lemma ident_inside i t ts : ident_tok i t -> toks_in hi ts -> In t ts -> inside 0 hi (ispan i).
Proof. intros (_ & _ & <-) W Hin. exact (proj1 (Forall_forall _ _) W t Hin). Qed.

Lemma qual_inside ps ts : toks_qual ps ts -> toks_in hi ts -> Forall (fun i => inside 0 hi (ispan i)) ps.
Proof.
  induction 1 as [i t Hi|i t d r tr Hi Hd Hr IH]; intros W.
  - constructor; [apply (ident_inside i t [t] Hi W); left; reflexivity|constructor].
  - constructor; [apply (ident_inside i t _ Hi W); left; reflexivity|apply IH, (toks_in_part W); auto with datatypes].
Qed.

Lemma pb_write_parts lo m : forall ps first, Forall (fun i => inside lo hi (ispan i)) ps -> pb (write_parts m first ps).
Proof.
  induction ps as [|p r IH]; intros first H; cbn [write_parts]; [exact I|]. inversion H; subst.
  destruct (ident_is_alias p && negb (mode_eqb m ModeJoin)); [eapply pb_err_span; eassumption|].
  apply pb_map, IH. assumption.
Qed.

Lemma Forall_map_pb {A} (f : A -> res (list piece)) l : Forall (fun a => pb (f a)) l -> Forall pb (map f l).
Proof. induction 1; cbn [map]; constructor; assumption. Qed.

Lemma pb_map_seq {A} (f : A -> res (list piece)) l : Forall (fun a => pb (f a)) l -> pb (sequence (map f l)).
Proof. intros H. apply pb_sequence, Forall_map_pb. exact H. Qed.

Lemma gspan_ident_inside lo i : inside lo hi (ispan i) -> inside lo hi (gspan (g_ident i)).
Proof. intros H. unfold g_ident. gs. apply union_spans_inside. constructor; [exact H|constructor]. Qed.

Lemma gspan_qual_inside lo ps : Forall (fun i => inside lo hi (ispan i)) ps -> inside lo hi (gspan (g_expr (EQual ps))).
Proof.
  intros H. cbn [g_expr]. gs. apply union_spans_inside. constructor; [|constructor].
  apply union_spans_inside, (incl_Forall (incl_filter _ _)). rewrite map_map. induction H; cbn [map]; constructor; [apply gspan_ident_inside; assumption|assumption].
Qed.

Lemma eb_qual lo ps : Forall (fun i => inside lo hi (ispan i)) ps -> eb (EQual ps).
Proof.
  intros HI c w. pose proof (gspan_qual_inside lo ps HI) as HG.
  assert (Hun : forall sp, inside lo hi sp -> pb (unbound_qual c ps sp)).
  { intros sp Hsp. unfold unbound_qual. destruct (mode_eqb (c_mode c) ModeLet); [eapply pb_err_span; exact Hsp|apply (pb_write_parts lo), HI]. }
  rewrite wx_qual. destruct ps as [|p [|p2 r]]; [apply Hun, HG| |apply Hun, HG].
  inversion HI; subst. destruct (negb (iquoted p)); [|apply Hun; assumption].
  destruct (scope_get (c_scope c) (iname p)); [exact I|]. destruct (assoc_str builtin_idents (iname p)); [exact I|apply Hun; assumption].
Qed.

Lemma eb_bin x sp op y : eb x -> eb y -> eb (EBin x sp op y).
Proof.
  intros Ex Ey c w. rewrite wx_bin. apply pb_wrap. destruct (bin_template _ op); [|exact I].
  apply pb_bind; [apply Ex|]. intros px. apply pb_map, Ey.
Qed.

Lemma eb_map w l : Forall eb l -> forall c, pb (sequence (map (wx c w) l)).
Proof. intros H c. apply pb_map_seq. eapply Forall_impl; [|exact H]. intros a Ha. apply Ha. Qed.

Theorem expr_eb :
  (forall e ts, toks_expr e ts -> toks_in hi ts -> eb e) /\
  (forall l ts, toks_list l ts -> toks_in hi ts -> Forall eb l) /\
  (forall l ts, toks_args l ts -> toks_in hi ts -> Forall eb l).
Proof.
  apply toks_expr_mutind.
  - intros ps ts Hq W. apply (eb_qual 0), (qual_inside _ _ Hq W).
  - intros sp k v t _ _ _ _ _ c w. rewrite wx_lit. destruct k; exact I.
  -
    intros sp op x t tx _ _ Hx IH W c w. rewrite wx_unary. apply pb_wrap, pb_map, IH, (toks_in_part W). auto with datatypes.
  -
    intros x sp op y tx t ty _ _ Hx IHx _ Hy IHy W.
    apply eb_bin; [apply IHx|apply IHy]; apply (toks_in_part W); auto with datatypes.
  -
    intros x isp lsp vs rsp tx ti tl tvs tr Hx IHx _ _ Hl IHl _ _ W c w.
    rewrite wx_in. apply pb_wrap, pb_bind; [apply IHx|intros px; apply pb_map, eb_map, IHl];
      apply (toks_in_part W); auto with datatypes.
  -
    intros lsp x rsp tl tx tr _ Hx IH _ W c w. rewrite wx_paren. apply IH, (toks_in_part W). auto with datatypes.
  -
    intros f lsp args rsp tf tl targs tr Hf _ Hl Ha IHa Hr W c w.
    assert (Eargs : Forall eb args) by (apply IHa, (toks_in_part W); auto with datatypes).
    rewrite wx_call. apply pb_wrap.
    destruct (known_func (iname f)) as [[wr np]|].
    + destruct (negb (arity_ok (writer_arity wr) (length args))).
      * (* arity error: at the end of the opening parenthesis *)
        destruct Hl as [_ <-]. unfold arity_err_pos. destruct (Nat.leb _ _); [|exact I].
        assert (Wl : inside 0 hi (tok_span tl)) by (apply (proj1 (Forall_forall _ _) W); right; left; reflexivity).
        cbn [pb tok_span span_end_ inside] in *. lia.
      * apply pb_fill. clear Ha IHa. generalize 0 as i. induction Eargs as [|a r Ha' Hr' IHr]; intros i; cbn [wargs]; [constructor|].
        constructor; [|apply IHr]. unfold warg. destruct (arg_use (writer_template wr) i) as [[|]|]; [apply Ha'|apply Ha'|exact I].
    + apply pb_map, eb_map, Eargs.
  -
    intros x lsp i rsp tx tl ti tr Hx IHx _ Hi IHi _ W c w.
    rewrite wx_index. apply pb_wrap, pb_bind; [apply IHx|intros px; apply pb_map, IHi];
      apply (toks_in_part W); auto with datatypes.
  - intros e te He IH W. constructor; [apply (IH W)|constructor].
  -
    intros e te c0 r tr He IHe _ Hr IHr _ W.
    constructor; [apply IHe|apply IHr]; apply (toks_in_part W); auto with datatypes.
  - intros _. constructor.
  - intros args ts Hl IH _ W. apply (IH W).
  - intros args ts c0 Hl IH _ _ W. apply IH, (toks_in_part W). auto with datatypes.
Qed.

Definition cond_ok (e : expr) : Prop := eb e /\ (forall p, e = EQual [p] -> inside 0 hi (ispan p)).
Definition pc_ok (c : proj_col) : Prop := match pc_x c with Some x => eb x | None => eb (EQual [pc_name c]) end.

Fixpoint op_ok (o : operator) : Prop :=
  match o with
  | OCount _ _ | OAs _ _ _ | ORender _ _ _ _ _ _ _ => True
  | OWhere _ _ x => eb x
  | OSort _ _ ts => Forall (fun t => eb (st_x t)) ts
  | OTake _ _ n => eb n
  | OTop _ _ n _ c => eb n /\ eb (st_x c)
  | OProject _ _ cs => Forall pc_ok cs
  | OExtend _ _ cs => Forall (fun c => eb (ec_x c)) cs
  | OSummarize _ _ cs _ gs => Forall (fun c => eb (ec_x c)) cs /\ Forall (fun c => eb (ec_x c)) gs
  | OJoin _ _ _ _ fl _ _ rops _ _ conds =>
    (match fl with Some f => inside 0 hi (ispan f) | None => True end) /\
    (fix all (l : list operator) : Prop := match l with [] => True | o' :: r => op_ok o' /\ all r end) rops /\
    Forall cond_ok conds
  end.

Lemma all_Forall l : (fix all (l : list operator) : Prop := match l with [] => True | o' :: r => op_ok o' /\ all r end) l <-> Forall op_ok l.
Proof. apply (fix_all_Forall op_ok). Qed.

Lemma sep_Forall {A} (P : A -> list token -> Prop) (Q : A -> Prop) :
  (forall a ta, P a ta -> toks_in hi ta -> Q a) -> forall l ts, toks_sep P l ts -> toks_in hi ts -> Forall Q l.
Proof. apply sep_items. intros ta c tr W. split; apply (toks_in_part W); auto with datatypes. Qed.

Lemma expr_eb0 e ts : toks_expr e ts -> toks_in hi ts -> eb e.
Proof. apply (proj1 expr_eb). Qed.

Lemma sort_term_eb t ts : toks_sort_term t ts -> toks_in hi ts -> eb (st_x t).
Proof. intros H W. destruct H. cbn [st_x]. eapply expr_eb0; [eassumption|]. apply (toks_in_part W). auto with datatypes. Qed.

Lemma ext_col_eb c ts : toks_ext_col c ts -> toks_in hi ts -> eb (ec_x c).
Proof. intros H W. destruct H; cbn [ec_x]; (eapply expr_eb0; [eassumption|]); apply (toks_in_part W); auto with datatypes. Qed.

Lemma proj_col_ok c ts : toks_proj_col c ts -> toks_in hi ts -> pc_ok c.
Proof.
  intros H W. destruct H; unfold pc_ok; cbn [pc_x pc_name].
  - eapply expr_eb0; [apply te_qual, tq_one; eassumption|exact W].
  - eapply expr_eb0; [eassumption|]. apply (toks_in_part W). auto with datatypes.
Qed.

Lemma list_cond_ok : forall l ts, toks_list l ts -> toks_in hi ts -> Forall cond_ok l.
Proof.
  assert (H1 : forall e te, toks_expr e te -> toks_in hi te -> cond_ok e).
  { intros e te He W. split; [eapply expr_eb0; eassumption|]. intros p ->. inversion He as [ps ts Hq| | | | | | |]; subst.
    pose proof (qual_inside _ _ Hq W) as HI. inversion HI; subst. assumption. }
  induction 1 as [e te He|e te c r tr He Hc Hr IH Hne]; intros W.
  - constructor; [eapply H1; eassumption|constructor].
  - constructor; [apply (H1 _ _ He)|apply IH]; apply (toks_in_part W); auto with datatypes.
Qed.

Theorem op_ok_all :
  (forall o ts, toks_op o ts -> toks_in hi ts -> op_ok o) /\
  (forall l ts, toks_ops l ts -> toks_in hi ts -> Forall op_ok l).
Proof.
  assert (HE : forall l ts, toks_sep toks_ext_col l ts -> toks_in hi ts -> Forall (fun c => eb (ec_x c)) l)
    by apply sep_Forall, ext_col_eb.
  apply toks_op_mutind; cbn [op_ok].
  - intros; exact I.
  - intros psp ksp x p n tx _ _ Hx W. apply (expr_eb0 _ _ Hx), (toks_in_part W). auto with datatypes.
  - intros psp terms p n b tt _ _ _ Ht W. apply (sep_Forall _ _ sort_term_eb _ _ Ht), (toks_in_part W). auto with datatypes.
  - intros psp ksp x p n tx _ _ Hx W. apply (expr_eb0 _ _ Hx), (toks_in_part W). auto with datatypes.
  - intros psp ksp x bsp col p n tx b tc _ _ Hx _ Hc W.
    split; [apply (expr_eb0 _ _ Hx)|apply (sort_term_eb _ _ Hc)]; apply (toks_in_part W); auto with datatypes.
  - intros psp ksp cols p n tc _ _ Hc W. apply (sep_Forall _ _ proj_col_ok _ _ Hc), (toks_in_part W). auto with datatypes.
  - intros psp ksp cols p n tc _ _ Hc W. apply (HE _ _ Hc), (toks_in_part W). auto with datatypes.
  - intros psp ksp cols bsp gs p n body _ _ Hs W.
    destruct Hs as [cols tc Hc|bsp gs b tg _ Hg|cols bsp gs tc b tg Hc _ Hg|cols bsp gs tc c b tg Hc _ _ Hg].
    + split; [apply (HE _ _ Hc), (toks_in_part W); auto with datatypes|constructor].
    + split; [constructor|apply (HE _ _ Hg), (toks_in_part W); auto with datatypes].
    + split; [apply (HE _ _ Hc)|apply (HE _ _ Hg)]; apply (toks_in_part W); auto with datatypes.
    + split; [apply (HE _ _ Hc)|apply (HE _ _ Hg)]; apply (toks_in_part W); auto 6 with datatypes.
  -
    intros psp ksp kindsp kasp flavor lsp rsrc rops rsp osp conds p n tk tl tsrc tro tr ton tc _ _ Hk _ _ Hops IH _ _ Hc _ W.
    assert (W' : toks_in hi (tl :: (tsrc :: tro) ++ tr :: ton :: tc)) by (apply (toks_in_part W); auto with datatypes).
    split; [|split].
    + destruct Hk as [|ksp0 asp fl tk0 ta tf _ _ Hf _ _]; [exact I|]. apply (ident_inside _ _ _ Hf W). do 4 right. left. reflexivity.
    + apply all_Forall, IH, (toks_in_part W'). auto with datatypes.
    + apply (list_cond_ok _ _ Hc), (toks_in_part W'). auto with datatypes.
  - intros; exact I.
  - intros; exact I.
  - intros _. constructor.
  - intros o to os tos _ IHo _ IHs W. constructor; [apply IHo|apply IHs]; apply (toks_in_part W); auto with datatypes.
Qed.

Lemma rewrite_cond_eb sc e : cond_ok e -> eb (rewrite_simple_cond sc e).
Proof.
  intros [He Hp]. unfold rewrite_simple_cond. destruct (bare_name sc e) as [p|] eqn:Eb; [|exact He].
  apply bare_name_Some in Eb as (E & _). pose proof (Hp p E) as Hin.
  apply eb_bin; apply (eb_qual 0); (constructor; [exact I|constructor; [exact Hin|constructor]]).
Qed.

Lemma build_join_cond_eb sc conds : Forall cond_ok conds -> eb (build_join_cond sc conds).
Proof.
  intros H. apply build_join_cond_ind; [intros _; apply (eb_qual 0); constructor; [exact I|constructor]|intros x y; apply eb_bin|].
  eapply Forall_impl; [|exact H]. apply rewrite_cond_eb.
Qed.

Definition subq_ok (s : subq) : Prop :=
  (match sq_op s with Some o => op_ok o | None => True end) /\
  (match sq_sort s with Some ts => Forall (fun t => eb (st_x t)) ts | None => True end) /\
  (match sq_take s with Some n => eb n | None => True end).

Theorem split_queries_ok sc t subs : Forall op_ok (tops t) -> split_queries sc [] t = Ok subs -> Forall subq_ok subs.
Proof.
  apply (split_queries_Forall sc subq_ok op_ok).
  - intros dst ds src. rewrite chain_subquery_eq. repeat split.
  - intros o s Hj Ho (H1 & H2 & H3). unfold subq_ok.
    destruct o; try discriminate Hj; cbn [decorate op_ok sq_op sq_sort sq_take] in *; try tauto.
    destruct Ho as [Hn Hc]. repeat split; try assumption. constructor; [exact Hc|constructor].
  - intros. repeat split.
  - intros p k ks ka fl lp rsrc rops rp on conds (_ & Hr & _). apply all_Forall. exact Hr.
Qed.

(** splitQueries fails only at a join: at its kind, or from writing its condition *)
Theorem split_queries_pos sc t : Forall op_ok (tops t) -> pb (split_queries sc [] t).
Proof.
  intros H. destruct (split_queries sc [] t) as [subs|pos] eqn:E; [exact I|]. revert H E.
  apply (split_queries_Err sc (fun pos => pb (@Err unit pos)) op_ok).
  intros p k ks ka fl lp rsrc rops rp on conds (Hfl & Hr & Hc). split; [apply all_Forall; exact Hr|]. split; intros pos0 Hp.
  - unfold flavor_ok in Hp. destruct (_ || _); [discriminate|]. destruct (str_eqb _ w_leftouter); [discriminate|]. injection Hp as <-.
    destruct fl as [f|]; [apply (pb_err_span 0), Hfl|exact I].
  - pose proof (build_join_cond_eb sc conds Hc (mkCtx sc ModeJoin) WPlain) as Hw. unfold wexpr in Hp. rewrite Hp in Hw. exact Hw.
Qed.

(* stated for [wexpr] so that no step has to find [c] and the wrapping by unifying against [wx] *)
Lemma eb_wexpr e c : eb e -> pb (wexpr c e).
Proof. intros H. exact (H c WPlain). Qed.

Lemma pb_ext_cols source c l : Forall (fun c0 => eb (ec_x c0)) l -> pb (write_ext_cols source c l).
Proof. intros H. unfold write_ext_cols. apply pb_map_seq. eapply Forall_impl; [|exact H]. intros col Hc. apply pb_map, eb_wexpr, Hc. Qed.

Theorem write_subq_pos source c s : subq_ok s -> pb (write_subq source c s).
Proof.
  intros (Ho & Hs & Ht). unfold write_subq.
  apply pb_bind.
  - destruct (sq_op s) as [o|]; [|exact I]. destruct o; cbn [op_ok] in Ho; try exact I.
    + apply pb_map, eb_wexpr, Ho.
    + apply pb_map, pb_map_seq. eapply Forall_impl; [|exact Ho]. intros col Hc. unfold pc_ok in Hc.
      apply pb_map. destruct (pc_x col); apply eb_wexpr, Hc.
    + apply pb_map, pb_ext_cols, Ho.
    + destruct Ho as [Hc Hg].
      apply pb_bind; [apply pb_ext_cols, Hg|]. intros gs. apply pb_bind; [apply pb_ext_cols, Hc|]. intros cs.
      apply pb_map. destruct groupby as [|g0 gr]; [exact I|].
      apply pb_map, pb_map_seq. eapply Forall_impl; [|exact Hg]. intros col Hcol. apply eb_wexpr, Hcol.
  - intros body. apply pb_bind.
    + destruct (sq_sort s) as [ts|]; [|exact I]. unfold write_sort. apply pb_map, pb_map_seq.
      eapply Forall_impl; [|exact Hs]. intros t0 Ht0. apply pb_map, eb_wexpr, Ht0.
    + intros srt. apply pb_map. destruct (sq_take s) as [n|]; [|exact I]. apply pb_map, eb_wexpr, Ht.
Qed.

Lemma write_ctes_pos source c : forall l, Forall subq_ok l -> pb (write_ctes source c l).
Proof.
  induction 1 as [|s r Hs Hr IH]; cbn [write_ctes]; [exact I|].
  apply pb_bind; [apply write_subq_pos; exact Hs|]. intros b. apply pb_map, IH.
Qed.

Definition stmt_ok (s : stmt) : Prop :=
  match s with
  | SLet _ _ _ x => eb x
  | STab t => Forall op_ok (tops t) /\ inside 0 hi (gspan (g_tabular t))
  end.

Theorem compile_stmts_pos source params ss : Forall stmt_ok ss -> pb (compile_stmts source params ss).
Proof.
  intros H. rewrite compile_stmts_eq.
  destruct (stmt_loop _ None ss) as [[sc q]|pos] eqn:El; cbn [bind fst snd].
  - destruct q as [t|]; [|exact I].
    assert (Hops : Forall op_ok (tops t)) by (rewrite Forall_forall in H; exact (proj1 (H _ (stmt_loop_query _ _ _ _ El)))).
    unfold write_query. pose proof (split_queries_pos sc t Hops) as Hp. pose proof (split_queries_ok sc t) as Hs.
    destruct (split_queries sc [] t) as [subs|p]; cbn [bind]; [|exact Hp]. specialize (Hs subs Hops eq_refl).
    apply Forall_rev in Hs. destruct (rev subs) as [|q0 rc]; [exact I|]. inversion Hs; subst.
    apply pb_bind; [apply write_ctes_pos; apply Forall_rev; assumption|]. intros w.
    apply pb_map, write_subq_pos. assumption.
  - (* a second query fails at its own start *)
    revert El. apply (stmt_loop_Err (fun pos => pb (@Err unit pos)) stmt_ok); [| |exact H].
    + intros sc kw name a x pos0 Hx Hv. pose proof (Hx (mkCtx sc ModeLet) WOperand) as Hp. unfold woperand in Hv. rewrite Hv in Hp. exact Hp.
    + intros t [_ Hsp]. apply (pb_err_span 0), Hsp.
Qed.
End Pos.

Lemma prog_stmt_ok hi : forall ss ts, toks_prog ss ts -> toks_within 0 hi ts -> Forall (stmt_ok hi) ss.
Proof.
  assert (HS : forall s ts, toks_stmt s ts -> toks_within 0 hi ts -> stmt_ok hi s).
  { intros s ts H W. pose proof (stmt_span s ts H) as [_ Hsp]. pose proof (within_toks_in _ _ _ W) as Wi.
    destruct H as [ksp i asp x tk ti ta tx _ _ _ Hx|t ts [tsrc0 [tro (-> & Hi & Ho)]]]; cbn [stmt_ok].
    - apply (expr_eb0 hi _ _ Hx), (toks_in_part Wi). auto with datatypes.
    - split.
      + apply (proj2 (op_ok_all hi) _ _ Ho), (toks_in_part Wi). auto with datatypes.
      + change (g_tabular t) with (g_stmt (STab t)). rewrite (Hsp 0 hi W). apply ext_inside. exact W. }
  intros ss ts H. induction H as [|semi ss rest _ _ IH|s ts Hs|s ts semi ss rest Hs _ _ IH]; intros W.
  - constructor.
  - destruct (within_single _ _ _ _ W) as [_ W2]. apply IH. exact W2.
  - constructor; [eapply HS; eassumption|constructor].
  - destruct (within_app _ _ _ _ W) as [W1 W2]. destruct (within_single _ _ _ _ W2) as [_ W3].
    constructor; [eapply HS; eassumption|apply IH; exact W3].
Qed.

(** C10 *)
Theorem compile_error_positions params s p : compile params s = CErr (Some p) -> p <= List.length s.
Proof.
  unfold compile. destruct (parse s) as [ss|e| |] eqn:P; try discriminate.
  destruct (parse_spans s ss P) as (Hprog & Hw & _).
  pose proof (compile_stmts_pos (List.length s) s params ss (prog_stmt_ok _ _ _ Hprog Hw)) as H.
  destruct (compile_stmts s params ss) as [ps|q]; [discriminate|]. intros [= ->]. exact H.
Qed.
