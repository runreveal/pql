(** * The structure of the output depends only on the structure of the program (property C04,
    Props/C04.v).
    [sk_stmts] erases from a program what that property calls content - the characters of string
    and number literals, of quoted names, of unquoted names that are plain column / table / alias
    names - and every position.  A program and its skeleton compile alike: both fail, or both
    succeed with piece lists that differ only in the payload of identifier, string and number
    pieces.  Hence changing content changes exactly the corresponding tokens. *)
From PQL Require Import Model.Compile Proofs.ExprInd Proofs.SplitSteps Proofs.PipelineFacts Proofs.WriterEqns
  Spec.SqlLex Proofs.ReadBack Proofs.ParsedWf Proofs.LexTokOk.
From Coq Require Import Lia String.
Local Open Scope list_scope.
Local Open Scope nat_scope.
Local Notation length := List.length (only parsing).

Definition pshape (p : piece) : piece :=
  match p with PIdent _ => PIdent [] | PStr _ => PStr [] | PNum _ => PNum [] | x => x end.
Definition sh (ps : list piece) : list piece := map pshape ps.

Lemma sh_app a b : sh (a ++ b) = sh a ++ sh b.
Proof. apply map_app. Qed.

(** [shsolve]: closes [sh a = sh b] where both sides are the same concatenation up to parts
    that a hypothesis [map pshape _ = map pshape _] relates *)
Ltac shsolve :=
  unfold sh in *; rewrite ?map_app; cbn [map pshape app]; rewrite ?map_app;
  repeat match goal with H : map pshape _ = map pshape _ |- _ => rewrite H; clear H end; try reflexivity.

Definition res_sim (r r' : res (list piece)) : Prop :=
  match r, r' with Ok a, Ok b => sh a = sh b | Err _, Err _ => True | _, _ => False end.
Definition lres_sim (r r' : res (list (list piece))) : Prop :=
  match r, r' with Ok a, Ok b => Forall2 (fun x y => sh x = sh y) a b | Err _, Err _ => True | _, _ => False end.

(** two runs fail together, or succeed with related results *)
Definition rsim {A B} (R : A -> B -> Prop) (r : res A) (r' : res B) : Prop :=
  match r, r' with Ok a, Ok b => R a b | Err _, Err _ => True | _, _ => False end.

Lemma rsim_bind {A B C D} (R : A -> B -> Prop) (R' : C -> D -> Prop) r r' f f' :
  rsim R r r' -> (forall a a', R a a' -> rsim R' (f a) (f' a')) -> rsim R' (bind r f) (bind r' f').
Proof. destruct r, r'; cbn [rsim bind]; intros H Hf; try contradiction; auto. Qed.

Lemma res_sim_bind r r' f f' : res_sim r r' -> (forall a a', sh a = sh a' -> res_sim (f a) (f' a')) ->
  res_sim (bind r f) (bind r' f').
Proof. apply (rsim_bind (fun a b => sh a = sh b)). Qed.

Lemma lres_sim_bind r r' f f' : lres_sim r r' -> (forall a a', Forall2 (fun x y => sh x = sh y) a a' -> res_sim (f a) (f' a')) ->
  res_sim (bind r f) (bind r' f').
Proof. apply (rsim_bind (Forall2 (fun x y => sh x = sh y))). Qed.

Lemma sequence_sim l l' : Forall2 res_sim l l' -> lres_sim (sequence l) (sequence l').
Proof.
  induction 1 as [|x y l l' Hxy Hl IH]; cbn [sequence]; [constructor|].
  apply (rsim_bind (fun a b => sh a = sh b)); [exact Hxy|]. intros a a' Ha.
  apply (rsim_bind (Forall2 (fun x y => sh x = sh y))); [exact IH|]. intros t t' Ht. constructor; assumption.
Qed.

Lemma join_pieces_sim sep l l' : Forall2 (fun x y => sh x = sh y) l l' -> sh (join_pieces sep l) = sh (join_pieces sep l').
Proof.
  induction 1 as [|x y l l' Hxy Hl IH]; [reflexivity|].
  cbn [join_pieces]. destruct Hl as [|x2 y2 l2 l2' H2 Hl2]; [exact Hxy|].
  rewrite !sh_app, Hxy. f_equal. f_equal. exact IH.
Qed.

Lemma flat_map_sim (f : list piece -> list piece) l l' :
  (forall a a', sh a = sh a' -> sh (f a) = sh (f a')) ->
  Forall2 (fun x y => sh x = sh y) l l' -> sh (flat_map f l) = sh (flat_map f l').
Proof.
  intros Hf. induction 1 as [|x y l l' Hxy Hl IH]; [reflexivity|]. cbn [flat_map]. rewrite !sh_app, IH, (Hf _ _ Hxy). reflexivity.
Qed.

Lemma fill_template_sim t : forall args args', Forall2 res_sim args args' ->
  res_sim (fill_template t args) (fill_template t args').
Proof.
  induction t as [|p r IH]; intros args args' H; cbn [fill_template]; [reflexivity|].
  destruct p as [s|mp i|i sep mp].
  - apply res_sim_bind; [apply IH; exact H|]. intros a a' Ha. cbn [res_sim sh map pshape]. f_equal. exact Ha.
  - apply res_sim_bind; [exact (Forall2_nth res_sim (Ok []) (Ok []) _ _ i H eq_refl)|]. intros a a' Ha.
    apply res_sim_bind; [apply IH; exact H|]. intros b b' Hb. cbn [res_sim]. rewrite !sh_app, Ha, Hb. reflexivity.
  - apply lres_sim_bind; [apply sequence_sim, Forall2_skipn; exact H|]. intros a a' Ha.
    apply res_sim_bind; [apply IH; exact H|]. intros b b' Hb. cbn [res_sim]. rewrite !sh_app, Hb. f_equal.
    apply flat_map_sim; [|exact Ha]. intros x x' Hx. cbn [sh map pshape]. f_equal. exact Hx.
Qed.

Definition alias_name (n : str) : bool := str_eqb n w_left || str_eqb n w_right.
Definition bound (bs : list str) (n : str) : bool := existsb (fun k => str_eqb k n) bs.
Definition builtin_name (n : str) : bool := match assoc_str builtin_idents n with Some _ => true | None => false end.
Definition special (bs : list str) (n : str) : bool := alias_name n || builtin_name n || bound bs n.

(** a run of 'x' longer than every bound name: neither bound, nor a constant, nor a join alias *)
Definition erased (bs : list str) : str := repeat 120%N (S (fold_right (fun k m => Nat.max (length k) m) 0 bs)).

(** in expression position a quoted name is content unless it spells a join alias (the SQL
    text "$left" IS the alias); an unquoted one is content unless it is special *)
Definition sk_ident (bs : list str) (i : ident) : ident :=
  mkIdent (if iquoted i then (if alias_name (iname i) then iname i else [])
           else if special bs (iname i) then iname i else erased bs) None (iquoted i).
(** a name that is only ever printed (table, alias, `as`, render names): content *)
Definition sk_name (i : ident) : ident := mkIdent [] None (iquoted i).
(** a name that is structure (function, join kind, let name): kept *)
Definition sk_keep (i : ident) : ident := mkIdent (iname i) None (iquoted i).

Fixpoint sk_e (bs : list str) (e : expr) : expr :=
  match e with
  | EQual ps => EQual (map (sk_ident bs) ps)
  | EBin x _ op y => EBin (sk_e bs x) None op (sk_e bs y)
  | EUnary _ op x => EUnary None op (sk_e bs x)
  | EIn x _ _ vs _ => EIn (sk_e bs x) None None (map (sk_e bs) vs) None
  | EParen _ x _ => EParen None (sk_e bs x) None
  | ELit _ k _ => ELit None k []
  | ECall f _ args _ => ECall (sk_keep f) None (map (sk_e bs) args) None
  | EIndex x _ i _ => EIndex (sk_e bs x) None (sk_e bs i) None
  end.

Definition sk_st (bs : list str) (t : sort_term) : sort_term :=
  mkSortTerm (sk_e bs (st_x t)) (st_asc t) None (st_nullsfirst t) None.
Definition sk_pc (bs : list str) (c : proj_col) : proj_col :=
  mkProjCol (sk_ident bs (pc_name c)) None (option_map (sk_e bs) (pc_x c)).
Definition sk_ec (bs : list str) (c : ext_col) : ext_col :=
  mkExtCol (option_map sk_name (ec_name c)) None (sk_e bs (ec_x c)).
Definition sk_rp (bs : list str) (p : render_prop) : render_prop :=
  mkRenderProp (sk_name (rp_name p)) None (sk_e bs (rp_value p)).

Fixpoint sk_op (bs : list str) (o : operator) : operator :=
  match o with
  | OCount _ _ => OCount None None
  | OWhere _ _ x => OWhere None None (sk_e bs x)
  | OSort _ _ ts => OSort None None (map (sk_st bs) ts)
  | OTake _ _ n => OTake None None (sk_e bs n)
  | OTop _ _ n _ c => OTop None None (sk_e bs n) None (sk_st bs c)
  | OProject _ _ cs => OProject None None (map (sk_pc bs) cs)
  | OExtend _ _ cs => OExtend None None (map (sk_ec bs) cs)
  | OSummarize _ _ cs _ gs => OSummarize None None (map (sk_ec bs) cs) None (map (sk_ec bs) gs)
  | OJoin _ _ _ _ fl _ rsrc rops _ _ conds =>
    OJoin None None None None (option_map sk_keep fl) None (sk_name rsrc) (map (sk_op bs) rops) None None (map (sk_e bs) conds)
  | OAs _ _ n => OAs None None (sk_name n)
  | ORender _ _ chart _ _ props _ => ORender None None (sk_name chart) None None (map (sk_rp bs) props) None
  end.

Definition sk_tab (bs : list str) (t : tabular) : tabular := mkTab (sk_name (tsrc t)) (map (sk_op bs) (tops t)).

Fixpoint sk_stmts (bs : list str) (seen_query : bool) (ss : list stmt) : list stmt :=
  match ss with
  | [] => []
  | STab t :: r => STab (sk_tab bs t) :: sk_stmts bs true r
  | SLet _ name _ x :: r =>
    SLet None (sk_keep name) None (sk_e bs x) :: sk_stmts (if seen_query then bs else iname name :: bs) seen_query r
  end.

Lemma empty_not_builtin : builtin_name [] = false.
Proof. vm_compute. reflexivity. Qed.
Lemma aliases_not_builtin : builtin_name w_left = false /\ builtin_name w_right = false.
Proof. vm_compute. split; reflexivity. Qed.
Lemma true_is_builtin : builtin_name w_true = true.
Proof. vm_compute. reflexivity. Qed.

Lemma erased_cons bs : exists r, erased bs = 120%N :: r.
Proof. unfold erased. eexists. reflexivity. Qed.

Lemma erased_not_alias bs : alias_name (erased bs) = false.
Proof. destruct (erased_cons bs) as [r ->]. reflexivity. Qed.

Lemma builtins_not_x : forallb (fun kv => match fst kv with c :: _ => negb (c =? 120)%N | [] => true end) builtin_idents = true.
Proof. vm_compute. reflexivity. Qed.

Lemma erased_not_builtin bs : builtin_name (erased bs) = false.
Proof.
  destruct (erased_cons bs) as [r ->]. unfold builtin_name. pose proof builtins_not_x as H.
  induction builtin_idents as [|[k v] t IH]; [reflexivity|]. cbn [forallb fst] in H. apply andb_prop in H as [Hk Ht].
  cbn [assoc_str]. destruct k as [|c k']; cbn [str_eqb]; [apply IH; exact Ht|].
  apply Bool.negb_true_iff in Hk. rewrite Hk. cbn [andb]. apply IH. exact Ht.
Qed.

Lemma str_eqb_length a : forall b, str_eqb a b = true -> length a = length b.
Proof. induction a as [|x a IH]; intros [|y b] H; cbn [str_eqb] in H; try discriminate; [reflexivity|]. apply andb_prop in H as [_ H]. cbn [length]. f_equal. apply IH. exact H. Qed.

Lemma erased_unbound bs : bound bs (erased bs) = false.
Proof.
  unfold bound. apply Bool.not_true_is_false. intros H. apply existsb_exists in H as (k & Hin & Hk).
  apply str_eqb_length in Hk. unfold erased in Hk. rewrite repeat_length in Hk.
  assert (G : length k <= fold_right (fun k m => Nat.max (length k) m) 0 bs).
  { clear Hk. induction bs as [|b r IH]; [contradiction|]. cbn [fold_right]. destruct Hin as [<-|Hin]; [lia|]. specialize (IH Hin). lia. }
  lia.
Qed.

Definition scope_sim (sc sc' : scope) : Prop :=
  Forall2 (fun kv kv' => fst kv = fst kv' /\ sh (snd kv) = sh (snd kv')) sc sc'.

Lemma scope_sim_keys sc sc' : scope_sim sc sc' -> map fst sc = map fst sc'.
Proof. induction 1 as [|x y l l' [H _] Hl IH]; cbn [map]; [reflexivity|]. rewrite H, IH. reflexivity. Qed.

Lemma scope_get_sim sc sc' n : scope_sim sc sc' ->
  match scope_get sc n, scope_get sc' n with Some a, Some b => sh a = sh b | None, None => True | _, _ => False end.
Proof.
  induction 1 as [|[k v] [k' v'] l l' [H1 H2] Hl IH]; cbn [scope_get]; [exact I|].
  cbn [fst snd] in *. subst k'. destruct (str_eqb k n); [exact H2|exact IH].
Qed.

Lemma scope_get_bound sc n : bound (map fst sc) n = match scope_get sc n with Some _ => true | None => false end.
Proof.
  induction sc as [|[k v] r IH]; cbn [map bound existsb scope_get fst]; [reflexivity|].
  destruct (str_eqb k n); [reflexivity|exact IH].
Qed.

Section Expr.
Variables (sc sc' : scope) (m : mode).
Hypothesis Hsc : scope_sim sc sc'.
Let bs := map fst sc'.

Lemma alias_name_empty : alias_name [] = false.
Proof. reflexivity. Qed.

Lemma sk_ident_alias i : ident_is_alias (sk_ident bs i) = ident_is_alias i.
Proof.
  unfold ident_is_alias, sk_ident. cbn [iquoted iname]. destruct (iquoted i); [reflexivity|]. cbn [negb andb].
  unfold special. fold (alias_name (iname i)). destruct (alias_name (iname i)) eqn:E; cbn [orb]; [exact E|].
  destruct (builtin_name (iname i) || bound bs (iname i)); [exact E|exact (erased_not_alias bs)].
Qed.

(** An unquoted identifier and its skeleton are looked up alike: the same constant or none,
    bound to values of one shape or unbound. *)
Lemma sk_lookup p : iquoted p = false ->
  assoc_str builtin_idents (iname (sk_ident bs p)) = assoc_str builtin_idents (iname p) /\
  match scope_get sc (iname (sk_ident bs p)), scope_get sc' (iname p) with Some a, Some b => sh a = sh b | None, None => True | _, _ => False end.
Proof.
  intros Hq. unfold sk_ident. rewrite Hq. cbn [iname]. unfold special.
  destruct (alias_name (iname p) || builtin_name (iname p) || bound bs (iname p)) eqn:Es; [split; [reflexivity|apply scope_get_sim, Hsc]|].
  apply Bool.orb_false_iff in Es as [Es Eb]. apply Bool.orb_false_iff in Es as [_ Ebi].
  pose proof (erased_not_builtin bs) as Hnb. unfold builtin_name in Hnb, Ebi. unfold bs in Eb. rewrite scope_get_bound in Eb.
  pose proof (erased_unbound bs) as He. unfold bs in He at 1. rewrite <- (scope_sim_keys _ _ Hsc), scope_get_bound in He. fold bs in He.
  destruct (assoc_str builtin_idents (erased bs)); [discriminate|]. destruct (assoc_str builtin_idents (iname p)); [discriminate|].
  destruct (scope_get sc (erased bs)); [discriminate|]. destruct (scope_get sc' (iname p)); [discriminate|]. split; reflexivity.
Qed.

Lemma write_parts_sk : forall ps first, res_sim (write_parts m first (map (sk_ident bs) ps)) (write_parts m first ps).
Proof.
  induction ps as [|p r IH]; intros first; cbn [map write_parts]; [reflexivity|].
  rewrite sk_ident_alias. destruct (ident_is_alias p && negb (mode_eqb m ModeJoin)); [exact I|].
  apply res_sim_bind; [apply IH|]. intros a a' Ha. cbn [res_sim]. destruct first; shsolve.
Qed.

Lemma unbound_qual_sk ps sp sp' : res_sim (unbound_qual (mkCtx sc m) (map (sk_ident bs) ps) sp) (unbound_qual (mkCtx sc' m) ps sp').
Proof. unfold unbound_qual. cbn [c_mode]. destruct (mode_eqb m ModeLet); [exact I|apply write_parts_sk]. Qed.

Lemma sk_ident_spells_alias n i : alias_name n = true -> str_eqb (iname (sk_ident bs i)) n = str_eqb (iname i) n.
Proof.
  intros Hn. unfold sk_ident. cbn [iname].
  assert (Hne : forall k, alias_name k = false -> str_eqb k n = false).
  { intros k Hk. apply str_eqb_neq. intros ->. congruence. }
  destruct (iquoted i).
  - destruct (alias_name (iname i)) eqn:E; [reflexivity|]. rewrite (Hne [] eq_refl), (Hne _ E). reflexivity.
  - unfold special. destruct (alias_name (iname i)) eqn:E; cbn [orb]; [reflexivity|].
    destruct (builtin_name (iname i) || bound bs (iname i)); [reflexivity|].
    rewrite (Hne _ (erased_not_alias bs)), (Hne _ E). reflexivity.
Qed.

Lemma existsb_map_ext {A B} (g : A -> B) (p : B -> bool) (q : A -> bool) l :
  Forall (fun a => p (g a) = q a) l -> existsb p (map g l) = existsb q l.
Proof. induction 1 as [|a r Ha _ IH]; cbn [map existsb]; [reflexivity|]. rewrite Ha, IH. reflexivity. Qed.

Lemma mentions_alias_sk n : alias_name n = true -> forall e, mentions n (sk_e bs e) = mentions n e.
Proof.
  intros Hn. induction e using expr_ind'; cbn [sk_e mentions].
  - apply existsb_map_ext, Forall_forall. intros p _. apply sk_ident_spells_alias, Hn.
  - rewrite IHe1, IHe2. reflexivity.
  - exact IHe.
  - rewrite IHe. f_equal. apply existsb_map_ext, H.
  - exact IHe.
  - reflexivity.
  - apply existsb_map_ext, H.
  - rewrite IHe1, IHe2. reflexivity.
Qed.

Lemma needs_wrap_sk w e : needs_wrap w (sk_e bs e) = needs_wrap w e.
Proof. destruct e; destruct w; reflexivity. Qed.

Lemma wrap_sim b b' r r' : b = b' -> res_sim r r' -> res_sim (wrapped b r) (wrapped b' r').
Proof.
  intros <- H. destruct b; [|exact H]. apply res_sim_bind; [exact H|]. intros a a' Ha. cbn [res_sim]. rewrite !sh_app, Ha. reflexivity.
Qed.

Lemma plain_eq_sk x y : plain_eq (mkCtx sc m) (sk_e bs x) (sk_e bs y) = plain_eq (mkCtx sc' m) x y.
Proof. unfold plain_eq. cbn [c_mode]. rewrite !mentions_alias_sk by reflexivity. reflexivity. Qed.

Lemma map_sk_sim w args : Forall (fun e => forall w, res_sim (wx (mkCtx sc m) w (sk_e bs e)) (wx (mkCtx sc' m) w e)) args ->
  Forall2 res_sim (map (wx (mkCtx sc m) w) (map (sk_e bs) args)) (map (wx (mkCtx sc' m) w) args).
Proof. induction 1 as [|a r Ha Hr IHr]; cbn [map]; constructor; [apply Ha|exact IHr]. Qed.

Theorem wx_sk : forall e w, res_sim (wx (mkCtx sc m) w (sk_e bs e)) (wx (mkCtx sc' m) w e).
Proof.
  induction e using expr_ind'; intros w; cbn [sk_e].
  -
    rewrite !wx_qual. cbn [c_scope].
    destruct ps as [|p [|p2 r]]; [apply (unbound_qual_sk [])| |apply (unbound_qual_sk (p :: p2 :: r))].
    cbn [map]. change (iquoted (sk_ident bs p)) with (iquoted p). destruct (iquoted p) eqn:Eq; cbn [negb]; [apply (unbound_qual_sk [p])|].
    destruct (sk_lookup p Eq) as [-> Hg]. destruct (scope_get sc _), (scope_get sc' _); try contradiction; [exact Hg|].
    destruct (assoc_str builtin_idents (iname p)); [reflexivity|apply (unbound_qual_sk [p])].
  - (* the template depends on the operator only *)
    rewrite !wx_bin, plain_eq_sk. apply wrap_sim; [exact (needs_wrap_sk w (EBin e1 os op e2))|].
    destruct (bin_template _ op) as [t|]; [|reflexivity].
    apply res_sim_bind; [apply IHe1|intros px px' Hx]. apply res_sim_bind; [apply IHe2|intros py py' Hy].
    cbn [res_sim]. rewrite !bin_out_eq. shsolve.
  -
    rewrite !wx_unary. apply wrap_sim; [exact (needs_wrap_sk w (EUnary os op e))|].
    apply res_sim_bind; [apply IHe|intros px px' Hx]. cbn [res_sim]. shsolve.
  -
    rewrite !wx_in. apply wrap_sim; [exact (needs_wrap_sk w (EIn e i lp vs rp))|].
    apply res_sim_bind; [apply IHe|intros px px' Hx].
    apply lres_sim_bind; [apply sequence_sim, map_sk_sim, H|].
    intros vsa vsa' Hvs. cbn [res_sim]. rewrite !sh_app, (join_pieces_sim _ _ _ Hvs). shsolve.
  - rewrite !wx_paren. apply IHe.
  - do 2 rewrite wx_lit. destruct k; reflexivity.
  -
    rewrite !wx_call. apply wrap_sim; [exact (needs_wrap_sk w (ECall f lp args rp))|]. cbn [sk_keep iname]. rewrite map_length.
    destruct (known_func (iname f)) as [[wr np]|].
    + destruct (arity_ok (writer_arity wr) (length args)); cbn [negb]; [|exact I].
      apply fill_template_sim.
      set (t := writer_template wr). generalize 0 as i.
      induction H as [|a r Ha Hr IHr]; intros i; cbn [map wargs]; constructor; [|apply IHr].
      unfold warg. destruct (arg_use t i) as [[|]|]; [apply Ha|apply Ha|reflexivity].
    + apply lres_sim_bind; [apply sequence_sim, map_sk_sim, H|].
      intros vsa vsa' Hvs. cbn [res_sim]. change (?x :: ?l ++ ?y) with ([x] ++ l ++ y).
      rewrite !sh_app, (join_pieces_sim _ _ _ Hvs). reflexivity.
  -
    rewrite !wx_index. apply wrap_sim; [exact (needs_wrap_sk w (EIndex e1 lb e2 rb))|].
    apply res_sim_bind; [apply IHe1|intros px px' Hx]. apply res_sim_bind; [apply IHe2|intros py py' Hy]. cbn [res_sim]. shsolve.
Qed.

End Expr.

Lemma res_sim_refl r : res_sim r r.
Proof. destruct r; cbn; auto. Qed.
Lemma res_sim_sym r r' : res_sim r r' -> res_sim r' r.
Proof. destruct r, r'; cbn; auto. Qed.
Lemma res_sim_trans a b c : res_sim a b -> res_sim b c -> res_sim a c.
Proof. destruct a, b, c; cbn; try contradiction; auto. intros; congruence. Qed.

Lemma Forall2_rev {A B} (R : A -> B -> Prop) l l' : Forall2 R l l' -> Forall2 R (rev l) (rev l').
Proof. induction 1 as [|x y l l' Hxy Hl IH]; cbn [rev]; [constructor|]. apply Forall2_app; [exact IH|constructor; [exact Hxy|constructor]]. Qed.

Section Prog.
Variables (sc sc' : scope).
Hypothesis Hsc : scope_sim sc sc'.
Let bs := map fst sc'.

Lemma special_aliases : special bs w_left = true /\ special bs w_right = true /\ special bs w_true = true.
Proof. unfold special. rewrite true_is_builtin. repeat split; reflexivity. Qed.

Lemma sk_ident_special n : special bs n = true -> sk_ident bs (mkIdent n None false) = mkIdent n None false.
Proof. intros H. unfold sk_ident. cbn [iquoted iname]. rewrite H. reflexivity. Qed.

Lemma bare_name_sk e : bare_name sc (sk_e bs e) = option_map (sk_ident bs) (bare_name sc' e).
Proof.
  destruct e as [ps| | | | | | |]; try reflexivity. destruct ps as [|p [|p2 r]]; try reflexivity.
  cbn [sk_e map bare_name]. change (iquoted (sk_ident bs p)) with (iquoted p). destruct (iquoted p) eqn:Eq; [reflexivity|].
  destruct (sk_lookup sc sc' Hsc p Eq) as [Hb Hg]. fold bs in Hb, Hg. rewrite Hb. destruct (assoc_str builtin_idents (iname p)); [reflexivity|].
  destruct (scope_get sc _), (scope_get sc' _); try contradiction; reflexivity.
Qed.

Lemma rewrite_cond_sk e : rewrite_simple_cond sc (sk_e bs e) = sk_e bs (rewrite_simple_cond sc' e).
Proof.
  unfold rewrite_simple_cond. rewrite bare_name_sk. destruct (bare_name sc' e) as [p|]; [|reflexivity].
  cbn [option_map sk_e map]. destruct special_aliases as (HL & HR & _). rewrite !sk_ident_special by assumption. reflexivity.
Qed.

Lemma build_join_cond_sk conds : build_join_cond sc (map (sk_e bs) conds) = sk_e bs (build_join_cond sc' conds).
Proof.
  apply build_join_cond_map; [|reflexivity|apply Forall_forall; intros c0 _; apply rewrite_cond_sk].
  cbn [sk_e map]. rewrite sk_ident_special by apply special_aliases. reflexivity.
Qed.

Definition src_sim (a b : ssource) : Prop :=
  match a, b with
  | SrcName _, SrcName _ => True
  | SrcJoin u _ o _ _ c, SrcJoin u' _ o' _ _ c' => u = u' /\ o = o' /\ sh c = sh c'
  | _, _ => False
  end.
Definition subq_sim (s s' : subq) : Prop :=
  src_sim (sq_source s) (sq_source s') /\ sq_op s = option_map (sk_op bs) (sq_op s') /\
  sq_sort s = option_map (map (sk_st bs)) (sq_sort s') /\ sq_take s = option_map (sk_e bs) (sq_take s').
Definition dres_sim (r r' : res (list subq)) : Prop :=
  match r, r' with Ok a, Ok b => Forall2 subq_sim a b | Err _, Err _ => True | _, _ => False end.

Lemma last_opt_sim dst dst' : Forall2 subq_sim dst dst' ->
  match last_opt dst, last_opt dst' with Some a, Some b => subq_sim a b | None, None => True | _, _ => False end.
Proof. intros H. unfold last_opt. apply Forall2_rev in H. destruct H; [exact I|assumption]. Qed.

(* name and table of a fresh subquery are not looked at by the comparison *)
Lemma chain_sim dst dst' ds src src' : subq_sim (chain_subquery dst ds src) (chain_subquery dst' ds src').
Proof. rewrite !chain_subquery_eq. repeat split. Qed.

Lemma op_nkind_sk o : op_nkind (sk_op bs o) = op_nkind o.
Proof. destruct o; reflexivity. Qed.

Lemma state_of_sim dst dst' ds : Forall2 subq_sim dst dst' -> state_of dst ds = state_of dst' ds.
Proof.
  intros H. unfold state_of. rewrite (Forall2_len _ _ _ H). pose proof (last_opt_sim _ _ H) as HL.
  destruct (Nat.eqb (length dst') ds); [reflexivity|].
  destruct (last_opt dst) as [s|], (last_opt dst') as [s'|]; try contradiction; [|reflexivity].
  destruct HL as (_ & Ho & Hs & Ht). rewrite Ho, Hs, Ht.
  destruct (sq_op s') as [o|]; cbn [option_map]; [rewrite op_nkind_sk|]; destruct (sq_sort s'), (sq_take s'); reflexivity.
Qed.

Lemma set_last_sim dst dst' f f' : Forall2 subq_sim dst dst' -> (forall s s', subq_sim s s' -> subq_sim (f s) (f' s')) ->
  Forall2 subq_sim (set_last dst f) (set_last dst' f').
Proof.
  intros H Hf. unfold set_last. apply Forall2_rev in H. destruct H as [|s s' r r' Hs Hr]; [constructor|].
  apply Forall2_rev. constructor; [apply Hf; exact Hs|exact Hr].
Qed.

Lemma snoc_sim dst dst' s s' : Forall2 subq_sim dst dst' -> subq_sim s s' -> Forall2 subq_sim (dst ++ [s]) (dst' ++ [s']).
Proof. intros H Hs. apply Forall2_app; [exact H|constructor; [exact Hs|constructor]]. Qed.

Lemma fold_res_sim (f f' : list subq -> operator -> res (list subq)) : forall ops dst dst',
  Forall (fun o => forall d d', Forall2 subq_sim d d' -> dres_sim (f d (sk_op bs o)) (f' d' o)) ops ->
  Forall2 subq_sim dst dst' -> dres_sim (fold_res f (map (sk_op bs) ops) dst) (fold_res f' ops dst').
Proof.
  induction ops as [|o r IH]; intros dst dst' Hall Hd; cbn [map fold_res]; [exact Hd|].
  inversion Hall as [|? ? Ho Hr]; subst. apply (rsim_bind (Forall2 subq_sim)); [exact (Ho dst dst' Hd)|].
  intros d d' Hdd. apply IH; assumption.
Qed.

Lemma ensure_one_sim ds src src' l l' : Forall2 subq_sim l l' -> Forall2 subq_sim (ensure_one ds src l) (ensure_one ds src' l').
Proof.
  intros H. unfold ensure_one. rewrite (Forall2_len _ _ _ H).
  destruct (Nat.eqb _ _); [apply snoc_sim; [exact H|apply chain_sim]|exact H].
Qed.

Lemma decorate_sim o s s' : is_join o = false -> subq_sim s s' -> subq_sim (decorate (sk_op bs o) s) (decorate o s').
Proof. intros Hj (H1 & H2 & H3 & H4). destruct o; try discriminate Hj; repeat split; assumption. Qed.

Theorem split_op_sk : forall o ds src src' dst dst', Forall2 subq_sim dst dst' ->
  dres_sim (split_op sc ds src dst (sk_op bs o)) (split_op sc' ds src' dst' o).
Proof.
  induction o as [o Hj|p k ks ka fl lp rsrc rops rp on conds IH] using operator_ind'; intros ds src src' dst dst' Hd.
  - rewrite !split_op_plain by (destruct o; try discriminate Hj; reflexivity). cbn [dres_sim].
    rewrite (state_of_sim dst dst' ds Hd).
    replace (lands_on_last (sk_op bs o) (state_of dst' ds)) with (lands_on_last o (state_of dst' ds)) by (destruct o; reflexivity).
    destruct (lands_on_last o _).
    + apply set_last_sim; [exact Hd|]. intros s s'. apply decorate_sim. exact Hj.
    + apply snoc_sim; [exact Hd|]. apply decorate_sim; [exact Hj|apply chain_sim].
  - cbn [sk_op]. rewrite !split_op_join, (Forall2_len _ _ _ Hd).
    assert (Hfl : flavor_name (option_map sk_keep fl) = flavor_name fl) by (destruct fl; reflexivity).
    apply (rsim_bind (Forall2 subq_sim)).
    { apply fold_res_sim; [|exact Hd]. eapply Forall_impl; [|exact IH]. intros o Ho d d' Hdd. apply Ho. exact Hdd. }
    intros d1 d1' Hf. apply (rsim_bind eq).
    { (* the kind of join is kept, its position is not: both fail, not at the same place *)
      unfold flavor_ok. rewrite Hfl. destruct (_ || _); [reflexivity|]. destruct (str_eqb _ w_leftouter); [reflexivity|exact I]. }
    intros outer _ <-. rewrite build_join_cond_sk.
    apply (rsim_bind (fun a b => sh a = sh b)); [apply (wx_sk sc sc' ModeJoin Hsc)|]. intros c c' Hc.
    apply snoc_sim; [apply ensure_one_sim; exact Hf|]. unfold join_subq. rewrite Hfl. repeat split. exact Hc.
Qed.

Lemma split_queries_sk t : dres_sim (split_queries sc [] (sk_tab bs t)) (split_queries sc' [] t).
Proof.
  rewrite !split_queries_eq. unfold sk_tab. cbn [tsrc tops length].
  apply (rsim_bind (Forall2 subq_sim)); [|intros d d' Hd; apply ensure_one_sim; exact Hd].
  apply fold_res_sim; [|constructor]. apply Forall_forall. intros o _ d d' Hd. apply split_op_sk. exact Hd.
Qed.
End Prog.

Section WriteSk.
Variables (sc sc' : scope) (source source' : str).
Hypothesis Hsc : scope_sim sc sc'.
Let bs := map fst sc'.
Let c := mkCtx sc ModeDefault.
Let c' := mkCtx sc' ModeDefault.

Lemma wexpr_sk e : res_sim (wexpr c (sk_e bs e)) (wexpr c' e).
Proof. apply (wx_sk sc sc' ModeDefault Hsc). Qed.

Lemma map_res_sim {A} (f f' : A -> res (list piece)) (g : A -> A) l :
  (forall a, res_sim (f (g a)) (f' a)) -> Forall2 res_sim (map f (map g l)) (map f' l).
Proof. intros H. induction l as [|a r IH]; cbn [map]; constructor; [apply H|exact IH]. Qed.

Lemma write_ext_cols_sk cols : lres_sim (write_ext_cols source c (map (sk_ec bs) cols)) (write_ext_cols source' c' cols).
Proof.
  unfold write_ext_cols. apply sequence_sim. apply map_res_sim. intros col. cbn [sk_ec ec_x].
  apply res_sim_bind; [apply wexpr_sk|]. intros a a' Ha. cbn [res_sim]. unfold col_alias. shsolve.
Qed.

Lemma write_sort_sk ts : res_sim (write_sort c (map (sk_st bs) ts)) (write_sort c' ts).
Proof.
  unfold write_sort. apply lres_sim_bind.
  - apply sequence_sim. apply map_res_sim. intros t. cbn [sk_st st_x st_asc st_nullsfirst].
    apply res_sim_bind; [apply wexpr_sk|]. intros a a' Ha. cbn [res_sim]. shsolve.
  - intros a a' Ha. cbn [res_sim]. rewrite !sh_app, (join_pieces_sim _ _ _ Ha). reflexivity.
Qed.

Lemma render_source_sim s s' : src_sim s s' -> sh (render_source s) = sh (render_source s').
Proof.
  destruct s, s'; cbn [src_sim render_source]; try contradiction; [reflexivity|].
  intros (-> & -> & Hc). rewrite !sh_app, Hc. reflexivity.
Qed.

Lemma flat_map_cols_sim (f : list piece -> list piece) l l' :
  (forall a a', sh a = sh a' -> sh (f a) = sh (f a')) ->
  Forall2 (fun x y => sh x = sh y) l l' -> sh (flat_map f l) = sh (flat_map f l').
Proof. apply flat_map_sim. Qed.

Lemma subq_body_sk s s' : subq_sim sc' s s' -> res_sim (subq_body source c s) (subq_body source' c' s').
Proof.
  intros (Hsrc & Hop & _ & _). fold bs in Hop. unfold subq_body. rewrite Hop.
  pose proof (render_source_sim _ _ Hsrc) as Hrs.
  destruct (sq_op s') as [o|]; cbn [option_map]; [|cbn [res_sim]; shsolve].
  destruct o; cbn [sk_op].
  - cbn [res_sim]. shsolve.
  - apply res_sim_bind; [apply wexpr_sk|]. intros a a' Ha. cbn [res_sim]. shsolve.
  - cbn [res_sim]. shsolve.
  - cbn [res_sim]. shsolve.
  - cbn [res_sim]. shsolve.
  -
    apply lres_sim_bind.
    + apply sequence_sim. apply map_res_sim. intros col. cbn [sk_pc pc_x pc_name].
      apply res_sim_bind.
      * destruct (pc_x col) as [x|]; cbn [option_map]; [apply wexpr_sk|].
        apply (wexpr_sk (EQual [pc_name col])).
      * intros a a' Ha. cbn [res_sim]. shsolve.
    + intros a a' Ha. cbn [res_sim]. rewrite !sh_app, (join_pieces_sim _ _ _ Ha). shsolve.
  -
    apply lres_sim_bind; [apply write_ext_cols_sk|]. intros a a' Ha. cbn [res_sim]. rewrite !sh_app.
    rewrite (flat_map_sim (fun x => lit ", " ++ x) _ _ ltac:(intros x x' Hx; shsolve) Ha). shsolve.
  -
    apply lres_sim_bind; [apply write_ext_cols_sk|]. intros g g' Hg.
    apply lres_sim_bind; [apply write_ext_cols_sk|]. intros a a' Ha.
    apply res_sim_bind.
    + destruct groupby as [|g0 gr]; cbn [map]; [reflexivity|].
      apply lres_sim_bind.
      * apply sequence_sim. cbn [map]. constructor; [apply wexpr_sk|].
        apply (map_res_sim (fun col => wexpr c (ec_x col)) (fun col => wexpr c' (ec_x col)) (sk_ec bs)).
        intros col. apply wexpr_sk.
      * intros k k' Hk. cbn [res_sim]. rewrite !sh_app, (join_pieces_sim _ _ _ Hk). reflexivity.
    + intros gb gb' Hgb. cbn [res_sim]. rewrite !sh_app.
      rewrite (join_pieces_sim (lit ", ") (g ++ a) (g' ++ a') ltac:(apply Forall2_app; assumption)). shsolve.
  - cbn [res_sim]. shsolve.
  - cbn [res_sim]. shsolve.
  -
    cbn [res_sim]. rewrite !sh_app. f_equal. f_equal. f_equal; [|shsolve].
    clear Hop. induction props as [|p r IH]; cbn [map flat_map]; [reflexivity|]. rewrite !sh_app, IH. reflexivity.
Qed.

Theorem write_subq_sk s s' : subq_sim sc' s s' -> res_sim (write_subq source c s) (write_subq source' c' s').
Proof.
  intros Hs. rewrite !write_subq_eq. apply res_sim_bind; [apply subq_body_sk, Hs|]. intros body body' Hb.
  destruct Hs as (_ & _ & Hsort & Htake). fold bs in Hsort, Htake. unfold subq_sort, subq_take. rewrite Hsort, Htake.
  apply res_sim_bind.
  - destruct (sq_sort s') as [ts|]; cbn [option_map]; [apply write_sort_sk|reflexivity].
  - intros srt srt' Hs. apply res_sim_bind.
    + destruct (sq_take s') as [n|]; cbn [option_map]; [|reflexivity].
      apply res_sim_bind; [apply wexpr_sk|]. intros a a' Ha. cbn [res_sim]. shsolve.
    + intros tk tk' Ht. cbn [res_sim]. shsolve.
Qed.

Lemma write_ctes_sk : forall l l', Forall2 (subq_sim sc') l l' -> res_sim (write_ctes source c l) (write_ctes source' c' l').
Proof.
  induction 1 as [|s s' r r' Hs Hr IH]; cbn [write_ctes]; [reflexivity|].
  apply res_sim_bind; [apply write_subq_sk; exact Hs|]. intros b b' Hb.
  apply res_sim_bind; [exact IH|]. intros t t' Ht. cbn [res_sim].
  destruct Hr; shsolve.
Qed.
End WriteSk.

Definition loop_sim (r r' : res (scope * option tabular)) : Prop :=
  match r, r' with
  | Ok (s1, q1), Ok (s1', q1') => scope_sim s1 s1' /\ q1 = option_map (sk_tab (map fst s1')) q1'
  | Err _, Err _ => True
  | _, _ => False
  end.

Lemma stmt_loop_sk : forall ss sc sc' q', scope_sim sc sc' ->
  loop_sim (stmt_loop sc (option_map (sk_tab (map fst sc')) q')
              (sk_stmts (map fst sc') (match q' with Some _ => true | None => false end) ss))
           (stmt_loop sc' q' ss).
Proof.
  induction ss as [|s r IH]; intros sc sc' q' Hsc.
  - cbn [sk_stmts stmt_loop loop_sim]. split; [assumption|reflexivity].
  - destruct s as [kw name asp x|t]; cbn [sk_stmts stmt_loop].
    + destruct q' as [t'|]; cbn [option_map].
      * apply (IH sc sc' (Some t') Hsc).
      * pose proof (wx_sk sc sc' ModeLet Hsc x WOperand) as Hw. unfold woperand.
        destruct (wx (mkCtx sc ModeLet) WOperand (sk_e (map fst sc') x)) as [v|],
                 (wx (mkCtx sc' ModeLet) WOperand x) as [v'|]; cbn [res_sim bind] in *; try contradiction; [|exact I].
        cbn [sk_keep iname].
        apply (IH ((iname name, v) :: sc) ((iname name, v') :: sc') None).
        constructor; [split; [reflexivity|exact Hw]|exact Hsc].
    + destruct q' as [t'|]; cbn [option_map]; [exact I|].
      apply (IH sc sc' (Some t) Hsc).
Qed.

Lemma scope_sim_refl sc : scope_sim sc sc.
Proof. induction sc; constructor; [split; reflexivity|assumption]. Qed.

Theorem compile_stmts_sk source source' params ss :
  res_sim (compile_stmts source params (sk_stmts (map fst params) false ss)) (compile_stmts source' params ss).
Proof.
  unfold compile_stmts.
  set (sc0 := map (fun kv : str * str => (fst kv, [PRaw (snd kv)])) params).
  assert (Hk : map fst sc0 = map fst params) by (unfold sc0; rewrite map_map; reflexivity).
  pose proof (stmt_loop_sk ss sc0 sc0 None (scope_sim_refl sc0)) as HL.
  cbn [option_map] in HL. rewrite Hk in HL.
  destruct (stmt_loop sc0 None (sk_stmts (map fst params) false ss)) as [[s1 q1]|],
           (stmt_loop sc0 None ss) as [[s1' q1']|]; cbn [loop_sim bind fst snd] in *; try contradiction; [|exact I].
  destruct HL as (Hsc & ->). destruct q1' as [t|]; cbn [option_map]; [|exact I].
  apply (rsim_bind (Forall2 (subq_sim s1'))); [apply split_queries_sk, Hsc|]. intros subs subs' Hsp.
  apply Forall2_rev in Hsp. destruct Hsp as [|q q' rc rc' Hq Hrc]; [exact I|].
  apply Forall2_rev in Hrc.
  apply res_sim_bind; [apply write_ctes_sk; assumption|]. intros w w' Hw.
  apply res_sim_bind; [apply write_subq_sk; assumption|]. intros b b' Hb.
  cbn [res_sim]. destruct Hrc; shsolve.
Qed.

(** C04 on pieces *)
Theorem same_skeleton_same_pieces s1 s2 params ss1 ss2 :
  sk_stmts (map fst params) false ss1 = sk_stmts (map fst params) false ss2 ->
  res_sim (compile_stmts s1 params ss1) (compile_stmts s2 params ss2).
Proof.
  intros Hsk.
  eapply res_sim_trans; [apply res_sim_sym, (compile_stmts_sk s1 s1 params ss1)|].
  rewrite Hsk. apply (compile_stmts_sk s1 s2 params ss2).
Qed.

(** pieces of one shape are equal, or both an identifier, a string or a number *)
Lemma ptok_shape p p' a : pshape p = pshape p' -> ptok p = Some a ->
  exists a', ptok p' = Some a' /\ map shape_of a = map shape_of a'.
Proof.
  intros Hs Ha. destruct p, p'; try discriminate Hs; cbn [ptok] in *; try discriminate Ha.
  - injection Hs as <-. exists a. split; [exact Ha|reflexivity].
  - injection Ha as <-. eexists. split; reflexivity.
  - injection Ha as <-. eexists. split; reflexivity.
  - injection Ha as <-. eexists. split; reflexivity.
  - injection Hs as <-. exists a. split; [exact Ha|reflexivity].
Qed.

Lemma ptoks_shape : forall ps ps' ts, sh ps = sh ps' -> ptoks ps = Some ts ->
  exists ts', ptoks ps' = Some ts' /\ map shape_of ts = map shape_of ts'.
Proof.
  induction ps as [|p r IH]; intros [|p' r'] ts Hs Hp; cbn [sh map] in Hs; try discriminate.
  - cbn [ptoks] in *. injection Hp as <-. exists []. split; reflexivity.
  - injection Hs as Hp1 Hr. cbn [ptoks] in *.
    destruct (ptok p) as [a|] eqn:Ea; [|discriminate]. destruct (ptoks r) as [b|] eqn:Eb; [|discriminate]. injection Hp as <-.
    destruct (ptok_shape p p' a Hp1 Ea) as (a' & -> & Ha). destruct (IH r' b Hr eq_refl) as (b' & -> & Hb).
    eexists. split; [reflexivity|]. rewrite !map_app, Ha, Hb. reflexivity.
Qed.

(** C04 on bytes: two sources that parse to programs with the same skeleton compile to texts whose
    SQL tokens - read by the dialect's lexer from the returned bytes - have the same shapes one by
    one.  No content can open a comment, close a quote or start a new clause. *)
Theorem structure_independent_of_content s1 s2 ss1 ss2 ps1 :
  parse s1 = ParseOk ss1 -> parse s2 = ParseOk ss2 ->
  Forall names_ok_stmt ss1 -> Forall names_ok_stmt ss2 ->
  sk_stmts [] false ss1 = sk_stmts [] false ss2 ->
  compile [] s1 = COk ps1 ->
  exists ps2 ts1 ts2, compile [] s2 = COk ps2 /\
    sql_lex ClickHouse (render ps1) = Some ts1 /\ sql_lex ClickHouse (render ps2) = Some ts2 /\
    map shape_of ts1 = map shape_of ts2.
Proof.
  intros P1 P2 N1 N2 Hsk C1.
  pose proof (same_skeleton_same_pieces s1 s2 [] ss1 ss2 Hsk) as Hsim.
  unfold compile in C1 |- *. rewrite P1 in C1. rewrite P2.
  destruct (compile_stmts s1 [] ss1) as [q1|] eqn:Q1; [|discriminate]. injection C1 as <-.
  destruct (compile_stmts s2 [] ss2) as [q2|] eqn:Q2; cbn [res_sim] in Hsim; [|contradiction].
  assert (C1 : compile [] s1 = COk q1) by (unfold compile; rewrite P1, Q1; reflexivity).
  assert (C2 : compile [] s2 = COk q2) by (unfold compile; rewrite P2, Q2; reflexivity).
  destruct (compile_lexes s1 ss1 q1 P1 N1 C1) as (t1 & Ht1 & L1).
  destruct (compile_lexes s2 ss2 q2 P2 N2 C2) as (t2 & Ht2 & L2).
  destruct (ptoks_shape q1 q2 t1 Hsim Ht1) as (t2' & Ht2' & Hsh). rewrite Ht2 in Ht2'. injection Ht2' as <-.
  exists q2, t1, t2. repeat split; assumption.
Qed.

(** the skeleton forgets content, and only content *)
Definition skel (s : str) : option (list stmt) :=
  match parse s with ParseOk ss => Some (sk_stmts [] false ss) | _ => None end.
Example skeleton_forgets_content :
  skel (L "let n = 5; T | where name == 'a' and `x y` > n | project `c` = f(0x10, ""s"") | take n") =
  skel (L "let n = 12.5e3; Users | where city == 'it\'s; -- /*' and `""` > n | project `a;b` = f(7, "")--"") | take n")
  /\ skel (L "T | where a == 'x'") <> skel (L "T | where a != 'x'")
  /\ skel (L "let n = 1; T | where n == 1") <> skel (L "let n = 1; T | where m == 1")
  /\ skel (L "T | where a == 1") <> None.
Proof. vm_compute. split; [reflexivity|]. repeat split; discriminate. Qed.
