(** * top N by k is sort by k followed by take N (property C02, Props/C02.v): the two spellings
    are split into the very same subqueries, whatever was built before, so they compile to the
    same text. *)
From PQL Require Import Model.Compile Proofs.SplitSteps.
From Coq Require Import Lia.
Local Open Scope list_scope.
Local Open Scope nat_scope.
Local Notation length := List.length (only parsing).

Lemma set_last_nil f : set_last [] f = [].
Proof. reflexivity. Qed.

Lemma set_last_twice dst f g : set_last (set_last dst f) g = set_last dst (fun s => g (f s)).
Proof. destruct dst as [|s init _] using rev_ind; [reflexivity|]. rewrite !set_last_snoc. reflexivity. Qed.

Theorem top_is_sort_then_take sc ds src dst p k n b col : ds <= length dst ->
  split_op sc ds src dst (OTop p k n b col) =
  (do d <- split_op sc ds src dst (OSort p k [col]); split_op sc ds src d (OTake p k n)).
Proof.
  intros Hds. rewrite !(split_op_plain sc ds src dst) by reflexivity. cbn [bind]. rewrite split_op_plain by reflexivity.
  change (lands_on_last (OTop p k n b col) (state_of dst ds)) with (lands_on_last (OSort p k [col]) (state_of dst ds)).
  destruct (lands_on_last (OSort p k [col]) (state_of dst ds)) eqn:Es.
  - (* the sort lands on the last subquery, and so does the take *)
    destruct (lands_on_last_spec _ _ _ Es) as (init & s & -> & Hne & Hca & Ht & _).
    rewrite !set_last_snoc, state_of_snoc by exact Hne. unfold lands_on_last, split_cond_take, can_attach in *.
    cbn [decorate sq_op sq_take ss_nil ss_can_attach ss_has_take]. rewrite Hca, Ht. cbn [orb negb]. rewrite ?set_last_snoc. reflexivity.
  - (* a fresh subquery for the sort: it has no limit and no operator, so the take attaches *)
    rewrite state_of_snoc, chain_subquery_eq by lia. cbn [decorate sq_op sq_sort sq_take].
    replace (lands_on_last (OTake p k n) _) with true by reflexivity. rewrite set_last_snoc. reflexivity.
Qed.

Theorem top_spelling sc src pre post p k n b col :
  split_queries sc [] (mkTab src (pre ++ OTop p k n b col :: post)) =
  split_queries sc [] (mkTab src (pre ++ OSort p k [col] :: OTake p k n :: post)).
Proof.
  rewrite !split_queries_eq. cbn [tsrc tops length]. rewrite !fold_res_app.
  destruct (fold_res (split_op sc 0 src) pre []) as [d|]; cbn [bind]; [|reflexivity].
  cbn [fold_res]. rewrite (top_is_sort_then_take sc 0 src d p k n b col (Nat.le_0_l _)).
  destruct (split_op sc 0 src d (OSort p k [col])) as [d1|]; cbn [bind]; reflexivity.
Qed.
