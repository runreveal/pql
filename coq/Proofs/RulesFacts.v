(** * An expression compiles exactly when it obeys the documented rules, at any depth; the
    let/query loop succeeds exactly when the lets before the query do and no second query follows
    (property C13, Props/C13.v).  That the rules are all the writer checks rests on three facts of
    the generated tables: the constants, the arity tests, and that a call's template writes every
    argument its arity admits. *)
From PQL Require Import Model.Trans Spec.PqlSem Spec.Rules Proofs.ExprInd Proofs.MeaningFacts Proofs.WriterEqns Proofs.TableFacts.
From Coq Require Import String Lia.
Local Open Scope list_scope.
Local Open Scope nat_scope.
Local Notation length := List.length (only parsing).

Definition is_ok {A} (r : res A) : bool := match r with Ok _ => true | Err _ => false end.

Lemma is_ok_bind {A B} (r : res A) (f : A -> res B) :
  is_ok (bind r f) = match r with Ok a => is_ok (f a) | Err _ => false end.
Proof. destruct r; reflexivity. Qed.

Lemma is_ok_bind_total {A B} (r : res A) (f : A -> res B) : (forall a, is_ok (f a) = true) -> is_ok (bind r f) = is_ok r.
Proof. intros H. destruct r; cbn; [apply H|reflexivity]. Qed.

Lemma is_ok_sequence {A} (l : list (res A)) : is_ok (sequence l) = forallb is_ok l.
Proof.
  induction l as [|x r IH]; cbn [sequence forallb]; [reflexivity|].
  destruct x as [a|p]; cbn [bind is_ok andb]; [|reflexivity].
  destruct (sequence r); cbn [bind is_ok] in *; exact IH.
Qed.

Lemma forallb_ext_in {A} (p q : A -> bool) l : Forall (fun x => p x = q x) l -> forallb p l = forallb q l.
Proof. induction 1 as [|a r Ha _ IH]; cbn [forallb]; [reflexivity|]. rewrite Ha, IH. reflexivity. Qed.

Lemma forallb_map_ext {A B} (f : A -> B) (p : B -> bool) (q : A -> bool) l :
  Forall (fun a => p (f a) = q a) l -> forallb p (map f l) = forallb q l.
Proof. induction 1 as [|a r Ha Hr IH]; cbn [map forallb]; [reflexivity|]. rewrite Ha, IH. reflexivity. Qed.

Lemma is_ok_map_seq {A B} (f : A -> res B) (wf q : A -> bool) l :
  Forall (fun a => wf a = true -> is_ok (f a) = q a) l -> forallb wf l = true -> is_ok (sequence (map f l)) = forallb q l.
Proof.
  intros H Hwf. rewrite is_ok_sequence. apply forallb_map_ext. rewrite forallb_forall in Hwf.
  rewrite Forall_forall in H |- *. intros x Hx. exact (H x Hx (Hwf x Hx)).
Qed.

Definition rmode_of (m : mode) : rmode := match m with ModeDefault => RDefault | ModeJoin => RJoin | ModeLet => RLet end.

Lemma builtin_consts_documented : map fst builtin_idents = [L "false"; L "null"; L "true"].
Proof. vm_compute. reflexivity. Qed.

Lemma assoc_builtin n : (match assoc_str builtin_idents n with Some _ => true | None => false end) = mem n r_consts.
Proof.
  rewrite builtin_idents_documented. cbn [assoc_str]. unfold mem, r_consts. cbn [existsb].
  rewrite (str_eqb_sym n (L "true")), (str_eqb_sym n (L "false")), (str_eqb_sym n (L "null")).
  change (L "true") with p_true. change (L "false") with p_false. change (L "null") with p_null.
  destruct (str_eqb p_false n), (str_eqb p_null n), (str_eqb p_true n); reflexivity.
Qed.

Lemma arity_documented n k :
  (match known_func n with Some (w, _) => arity_ok (writer_arity w) k | None => true end) = arity_rule_ok n k.
Proof.
  destruct (name_cases n) as [Hin | [Hnone Hkf]].
  - cbn [In builtin_names] in Hin.
    repeat destruct Hin as [Hin|Hin]; try contradiction; subst n; vm_compute; destruct k as [|[|[|[|?]]]]; reflexivity.
  - (* no rule names it: the rules spell the names out, [builtin_names] uses the constants of the semantics *)
    rewrite Hkf. unfold arity_rule_ok, mem, r_names1, r_names0, r_names3, r_strcat. cbn [existsb].
    change (L "not") with p_not. change (L "isnull") with p_isnull. change (L "isnotnull") with p_isnotnull.
    change (L "tolower") with p_tolower. change (L "toupper") with p_toupper. change (L "countif") with p_countif.
    change (L "now") with p_nowf. change (L "count") with p_countf. change (L "iff") with p_iff. change (L "iif") with p_iif.
    change (L "strcat") with p_strcat.
    unfold builtin_names in Hnone. repeat (apply Forall_cons_iff in Hnone as [-> Hnone]). reflexivity.
Qed.

Definition template_mentions (t : list tpart) (i : nat) : bool :=
  existsb (fun p => match p with T_Lit _ => false | T_Arg _ j => Nat.eqb i j | T_Rest j _ _ => Nat.leb j i end) t.

Lemma templates_cover_exact :
  forallb (fun w => match writer_arity w with
                    | ArityExactly n => forallb (template_mentions (writer_template w)) (seq 0 n)
                    | ArityAtLeast k =>
                      (* a T_Rest j with j <= k, and T_Arg for every index below j *)
                      existsb (fun p => match p with
                                        | T_Rest j _ _ => Nat.leb j k && forallb (template_mentions (writer_template w)) (seq 0 j)
                                        | _ => false end) (writer_template w)
                    | ArityAny => false
                    end) all_fwriters = true.
Proof. vm_compute. reflexivity. Qed.

Lemma all_fwriters_complete w : In w all_fwriters.
Proof. destruct w; vm_compute; tauto. Qed.

Lemma template_covers w n i : arity_ok (writer_arity w) n = true -> i < n -> template_mentions (writer_template w) i = true.
Proof.
  intros Ha Hi. pose proof (forallb_complete _ _ all_fwriters_complete templates_cover_exact w) as H. cbv beta in H.
  destruct (writer_arity w) as [k|k|]; cbn [arity_ok] in Ha; [| |discriminate].
  - apply Nat.eqb_eq in Ha. subst k. rewrite forallb_forall in H. apply H. apply in_seq. lia.
  - apply existsb_exists in H as (p & Hp & Hc). destruct p as [|? ?|j sep mp]; try discriminate.
    apply andb_prop in Hc as [Hjk Hall]. apply Nat.leb_le in Hjk.
    destruct (Nat.lt_ge_cases i j) as [Hlt|Hge].
    + rewrite forallb_forall in Hall. apply Hall. apply in_seq. lia.
    + unfold template_mentions. apply existsb_exists. exists (T_Rest j sep mp). split; [exact Hp|]. apply Nat.leb_le. exact Hge.
Qed.

Lemma is_ok_fill t : forall rs,
  is_ok (fill_template t rs) =
  forallb (fun p => match p with
                    | T_Lit _ => true
                    | T_Arg _ i => is_ok (nth i rs (Ok []))
                    | T_Rest i _ _ => forallb is_ok (skipn i rs)
                    end) t.
Proof.
  induction t as [|p r IH]; intros rs; cbn [fill_template forallb]; [reflexivity|].
  destruct p as [s|mp i|i sep mp].
  - rewrite is_ok_bind_total; [apply IH|intros a; reflexivity].
  - rewrite is_ok_bind. destruct (nth i rs (Ok [])) as [a|e]; cbn [is_ok andb]; [|reflexivity].
    rewrite is_ok_bind_total; [apply IH|intros ?; reflexivity].
  - rewrite is_ok_bind. rewrite <- is_ok_sequence. destruct (sequence (skipn i rs)) as [a|e]; cbn [is_ok andb]; [|reflexivity].
    rewrite is_ok_bind_total; [apply IH|intros ?; reflexivity].
Qed.

Definition bnd (sc : scope) (n : str) : bool := match scope_get sc n with Some _ => true | None => false end.

Lemma bnd_cons k v sc n : bnd ((k, v) :: sc) n = str_eqb k n || bnd sc n.
Proof. unfold bnd. cbn [scope_get]. destruct (str_eqb k n); reflexivity. Qed.

Lemma alias_eq p : ident_is_alias p = is_side_alias p.
Proof. reflexivity. Qed.

Lemma is_ok_write_parts m ps : forall first,
  is_ok (write_parts m first ps) = forallb (fun p => negb (ident_is_alias p && negb (mode_eqb m ModeJoin))) ps.
Proof.
  induction ps as [|p r IH]; intros first; cbn [write_parts forallb]; [reflexivity|].
  destruct (ident_is_alias p && negb (mode_eqb m ModeJoin)); cbn [negb andb is_ok]; [reflexivity|].
  rewrite is_ok_bind_total; [apply IH|intros ?; reflexivity].
Qed.

(** a name that is neither bound nor a constant: an error in a let, a column otherwise, and then
    [$left] and [$right] only inside a join condition *)
Lemma is_ok_unbound c ps sp :
  is_ok (unbound_qual c ps sp) =
  match rmode_of (c_mode c) with
  | RLet => false
  | RJoin => true
  | RDefault => forallb (fun p => negb (is_side_alias p)) ps
  end.
Proof.
  unfold unbound_qual. destruct (c_mode c); cbn [mode_eqb rmode_of is_ok]; [| |reflexivity];
    rewrite is_ok_write_parts; cbn [mode_eqb negb]; induction ps as [|a l IHl]; cbn [forallb]; try reflexivity.
  - rewrite Bool.andb_true_r, IHl. reflexivity.
  - rewrite Bool.andb_false_r, IHl. reflexivity.
Qed.

Lemma is_ok_wrap b body : is_ok (wrapped b body) = is_ok body.
Proof. destruct b; [|reflexivity]. destruct body; reflexivity. Qed.

Lemma arg_use_mentions t i : (match arg_use t i with Some _ => true | None => false end) = template_mentions t i.
Proof.
  rewrite arg_use_find. unfold template_mentions. induction t as [|p r IH]; [reflexivity|]. cbn [find existsb].
  change (match p with T_Lit _ => false | T_Arg _ j => Nat.eqb i j | T_Rest j' _ _ => Nat.leb j' i end) with (part_uses p i).
  destruct (part_uses p i) eqn:E; [destruct p; [discriminate E|reflexivity|reflexivity]|exact IH].
Qed.

Lemma fill_all_ok t rs : forallb is_ok rs = true -> is_ok (fill_template t rs) = true.
Proof.
  rewrite is_ok_fill, !forallb_forall. intros H p _. destruct p as [s|mp i|i sep mp]; [reflexivity| |].
  - destruct (nth_in_or_default i rs (Ok [])) as [Hin| ->]; [exact (H _ Hin)|reflexivity].
  - apply forallb_forall. intros r Hr. apply H. rewrite <- (firstn_skipn i rs). apply in_or_app. right. exact Hr.
Qed.

Section Written.
Variables (c : ctx) (R : expr -> bool) (t : list tpart).

(** an argument the template does not mention is written as nothing and cannot make the filling fail *)
Lemma is_ok_fill_wargs args : is_ok (fill_template t (wargs c t 0 args)) = forallb is_ok (wargs c t 0 args).
Proof.
  apply Bool.eq_true_iff_eq. split; [|apply fill_all_ok].
  destruct (fill_template _ _) as [b|] eqn:E; [intros _|discriminate]. apply fill_wargs_ok in E as (pas & H & _).
  induction H as [|r pa rs pas' -> _ IH]; [reflexivity|exact IH].
Qed.

Lemma is_ok_wargs : forall args i, Forall (fun x => forall w, is_ok (wx c w x) = R x) args ->
  (forall j, j < length args -> template_mentions t (i + j) = true) ->
  forallb is_ok (wargs c t i args) = forallb R args.
Proof.
  induction args as [|a r IH]; intros i Hargs Hcov; [reflexivity|]. inversion Hargs as [|? ? Ha Hr]; subst.
  cbn [wargs forallb]. f_equal.
  - pose proof (Hcov 0 (Nat.lt_0_succ _)) as Hm. rewrite Nat.add_0_r, <- arg_use_mentions in Hm.
    rewrite warg_eq. destruct (arg_use t i); [apply Ha|discriminate Hm].
  - apply IH; [exact Hr|]. intros j Hj. rewrite Nat.add_succ_comm. apply Hcov. cbn [length]. lia.
Qed.
End Written.

Lemma is_ok_bind2 {A B C} (r1 : res A) (r2 : res B) (k : A -> B -> res C) :
  (forall a b, is_ok (k a b) = true) -> is_ok (bind r1 (fun a => bind r2 (k a))) = is_ok r1 && is_ok r2.
Proof. intros H. destruct r1 as [a|]; cbn; [|reflexivity]. destruct r2 as [b|]; cbn; [apply H|reflexivity]. Qed.

(** expressions the parser can build: every binary node carries a binary operator *)
Fixpoint wf_expr (e : expr) : bool :=
  match e with
  | EBin x _ op y => binop_handled op && negb (kind_eqb op KIn) && wf_expr x && wf_expr y
  | EUnary _ _ x | EParen _ x _ => wf_expr x
  | EIn x _ _ vs _ => wf_expr x && forallb wf_expr vs
  | EIndex x _ i _ => wf_expr x && wf_expr i
  | ECall _ _ args _ => forallb wf_expr args
  | _ => true
  end.

Theorem wx_ok_iff_rules c : forall e, wf_expr e = true -> forall w,
  is_ok (wx c w e) = expr_rules (bnd (c_scope c)) (rmode_of (c_mode c)) e.
Proof.
  assert (Hmap : forall w l, Forall (fun e => wf_expr e = true -> forall w, is_ok (wx c w e) = expr_rules (bnd (c_scope c)) (rmode_of (c_mode c)) e) l ->
            forallb wf_expr l = true ->
            is_ok (sequence (map (wx c w) l)) = forallb (expr_rules (bnd (c_scope c)) (rmode_of (c_mode c))) l).
  { intros w l H. apply is_ok_map_seq. eapply Forall_impl; [|exact H]. intros x Hx Hw. apply Hx, Hw. }
  induction e using expr_ind'; intros Hwf w; cbn [wf_expr] in Hwf; cbn [expr_rules].
  - (* identifiers *)
    rewrite wx_qual. destruct ps as [|p [|p2 r]]; [apply is_ok_unbound| |apply is_ok_unbound].
    destruct (negb (iquoted p)); cbn [andb].
    + unfold bnd. destruct (scope_get (c_scope c) (iname p)); cbn [orb]; [reflexivity|].
      rewrite <- assoc_builtin. destruct (assoc_str builtin_idents (iname p)); [reflexivity|].
      rewrite is_ok_unbound. cbn [forallb]. rewrite Bool.andb_true_r. reflexivity.
    + rewrite is_ok_unbound. cbn [forallb]. rewrite Bool.andb_true_r. reflexivity.
  - (* a template fails only through its operands *)
    apply andb_prop in Hwf as [Hwf H2]. apply andb_prop in Hwf as [Hwf H1]. apply andb_prop in Hwf as [Hop Hin].
    rewrite wx_bin, is_ok_wrap.
    destruct (bin_template_handled (plain_eq c e1 e2) op Hop) as [t ->].
    { intros ->. discriminate Hin. }
    rewrite is_ok_bind2 by reflexivity. rewrite (IHe1 H1), (IHe2 H2). reflexivity.
  - (* unary *)
    rewrite wx_unary, is_ok_wrap, is_ok_bind_total; [apply IHe; exact Hwf|intros ?; reflexivity].
  - (* in *)
    apply andb_prop in Hwf as [H1 H2].
    rewrite wx_in, is_ok_wrap, is_ok_bind2 by reflexivity. rewrite (IHe H1), (Hmap _ _ H H2). reflexivity.
  - (* parentheses *) rewrite wx_paren. apply IHe. exact Hwf.
  - (* literals *) rewrite wx_lit. destruct k; reflexivity.
  - (* calls *)
    rewrite wx_call, is_ok_wrap, <- arity_documented.
    destruct (known_func (iname f)) as [[wr np]|] eqn:Ek.
    + destruct (arity_ok (writer_arity wr) (length args)) eqn:Ea; cbn [negb andb is_ok]; [|reflexivity].
      rewrite is_ok_fill_wargs. apply is_ok_wargs; [|intros j; apply (template_covers wr), Ea].
      rewrite forallb_forall in Hwf. rewrite Forall_forall in H |- *. intros x Hx. apply H; [exact Hx|apply Hwf; exact Hx].
    + cbn [is_ok andb]. rewrite is_ok_bind_total; [|intros ?; reflexivity]. apply (Hmap _ _ H Hwf).
  - (* index *)
    apply andb_prop in Hwf as [H1 H2].
    rewrite wx_index, is_ok_wrap, is_ok_bind2 by reflexivity. rewrite (IHe1 H1), (IHe2 H2). reflexivity.
Qed.

Fixpoint wf_stmts (ss : list stmt) : bool :=
  match ss with
  | [] => true
  | SLet _ _ _ x :: r => wf_expr x && wf_stmts r
  | STab _ :: r => wf_stmts r
  end.

Lemma expr_rules_ext b1 b2 m : (forall n, b1 n = b2 n) -> forall e, expr_rules b1 m e = expr_rules b2 m e.
Proof.
  intros Hb. induction e using expr_ind'; cbn [expr_rules]; try reflexivity; try congruence.
  - destruct ps as [|p [|p2 r]]; try reflexivity. rewrite Hb. reflexivity.
  - rewrite IHe. f_equal. apply forallb_ext_in, H.
  - f_equal. apply forallb_ext_in, H.
Qed.

(** Stated over any [b] that agrees with the scope: each let extends the scope by a binding, and
    [bnd] of the longer scope is equal to the [fun n => str_eqb name n || b n] of the rules only
    pointwise. *)
Lemma stmt_loop_rules ss : forall sc b q, (forall n, b n = bnd sc n) -> wf_stmts ss = true ->
  is_ok (stmt_loop sc q ss) = stmts_rules b (match q with Some _ => true | None => false end) ss.
Proof.
  induction ss as [|s r IH]; intros sc b q Hb Hwf; cbn [stmt_loop stmts_rules]; [reflexivity|].
  destruct s as [kw name a x|t]; cbn [wf_stmts] in Hwf.
  - apply andb_prop in Hwf as [Hx Hr].
    destruct q as [t0|]; [apply IH; assumption|].
    rewrite is_ok_bind, (expr_rules_ext b (bnd sc) RLet Hb). unfold woperand.
    pose proof (wx_ok_iff_rules (mkCtx sc ModeLet) x Hx WOperand) as Hw. cbn [c_scope c_mode rmode_of] in Hw.
    destruct (wx (mkCtx sc ModeLet) WOperand x) as [v|p]; cbn [is_ok] in Hw; rewrite <- Hw; cbn [andb]; [|reflexivity].
    apply IH; [|exact Hr]. intros n. rewrite Hb. symmetry. apply bnd_cons.
  - destruct q as [t0|]; cbn [is_ok negb andb]; [reflexivity|]. apply (IH sc b (Some t) Hb Hwf).
Qed.

Theorem stmt_loop_ok_iff_rules ss : forall sc q, wf_stmts ss = true ->
  is_ok (stmt_loop sc q ss) = stmts_rules (bnd sc) (match q with Some _ => true | None => false end) ss.
Proof. intros sc q. apply stmt_loop_rules. reflexivity. Qed.
