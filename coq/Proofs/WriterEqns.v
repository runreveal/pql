(** * The expression writer, one equation per constructor.  [wx] is a single large match:
    unfolding it on a symbolic constructor is slow and leaves the match over all token kinds in
    the goal, so every proof about the writer goes through these equations.  [wx c w e] is a body,
    parenthesised when [needs_wrap w e].  Binary operators print [pre ++ x ++ mid ++ y ++ post]
    for a template depending on the operator alone ([bin_template]); the arguments of a known
    function are written by a loop of their own ([wargs]). *)
From PQL Require Import Model.Compile Proofs.TableFacts.
From Coq Require Import String Lia.
Local Open Scope list_scope.
Local Notation length := List.length (only parsing).

Definition wrapped (b : bool) (r : res (list piece)) : res (list piece) :=
  if b then do x <- r; Ok (lit "(" ++ x ++ lit ")") else r.

Lemma bind_ok {X Y} (r : res X) (k : X -> res Y) y : bind r k = Ok y -> exists x, r = Ok x /\ k x = Ok y.
Proof. destruct r as [x|p]; cbn [bind]; [eauto|discriminate]. Qed.

Lemma sequence_ok {X} : forall (l : list (res X)) xs, sequence l = Ok xs -> Forall2 (fun r x => r = Ok x) l xs.
Proof.
  induction l as [|r l IH]; intros xs; cbn [sequence]; [intros [= <-]; constructor|].
  intros H. apply bind_ok in H as (x & -> & H). apply bind_ok in H as (tl & Htl & [= <-]). constructor; [reflexivity|apply IH; exact Htl].
Qed.

Record bin_tpl := mkBin { bt_wrap : wrap; bt_pre : list piece; bt_mid : list piece; bt_post : list piece }.

(** [==] between the two sides of a join is printed bare, without the NULL guard *)
Definition plain_eq (c : ctx) (x y : expr) : bool :=
  mode_eqb (c_mode c) ModeJoin &&
  ((mentions w_left x || mentions w_left y) && (mentions w_right x || mentions w_right y)).

Definition bin_template (peq : bool) (op : kind) : option bin_tpl :=
  match op with
  | KEq => Some (if peq then mkBin WMaybe [] (lit " = ") []
                 else mkBin WMaybe (lit "coalesce(") (lit " = ") (lit ", FALSE)"))
  | KNE => Some (mkBin WMaybe (lit "coalesce(") (lit " <> ") (lit ", FALSE)"))
  | KCaseInsensitiveEq => Some (mkBin WPlain (lit "lower(") (lit ") = lower(") (lit ")"))
  | KCaseInsensitiveNE => Some (mkBin WPlain (lit "lower(") (lit ") <> lower(") (lit ")"))
  | _ => option_map (fun s => mkBin WMaybe [] (lit " " ++ [PLit s] ++ lit " ") []) (binop_sql op)
  end.

Definition unhandled_bin : list piece := [PHole (L "NULL /* unhandled binary op */ ")].

(** [post] is empty for most operators; the model then prints [py], not [py ++ []] *)
Definition bin_out (t : bin_tpl) (px py : list piece) : list piece :=
  bt_pre t ++ px ++ bt_mid t ++ match bt_post t with [] => py | post => py ++ post end.

Lemma bin_out_eq t px py : bin_out t px py = bt_pre t ++ px ++ bt_mid t ++ py ++ bt_post t.
Proof. unfold bin_out. destruct (bt_post t); [rewrite app_nil_r|]; reflexivity. Qed.

Lemma wx_bin c w x s op y :
  wx c w (EBin x s op y) =
  wrapped (needs_wrap w (EBin x s op y))
    match bin_template (plain_eq c x y) op with
    | Some t => do px <- wx c (bt_wrap t) x; do py <- wx c (bt_wrap t) y; Ok (bin_out t px py)
    | None => Ok unhandled_bin
    end.
Proof.
  (* One kind at a time, so that each side reduces to a single branch.  Every conversion that
     meets a recursive call compares the whole body of [wx] (the unfolded fixpoint against the
     constant), which is what this proof costs; naming the left-hand side for [eq_refl] spares
     the unifier a second such comparison per kind. *)
  destruct op; try (match goal with |- ?l = _ => apply (@eq_refl _ l) end).
  change (wx c w (EBin x s KEq y)) with
    (wrapped (needs_wrap w (EBin x s KEq y))
       (do px <- wx c WMaybe x; do py <- wx c WMaybe y;
        if plain_eq c x y then Ok (px ++ lit " = " ++ py)
        else Ok (lit "coalesce(" ++ px ++ lit " = " ++ py ++ lit ", FALSE)"))).
  cbn [bin_template]. destruct (plain_eq c x y); reflexivity.
Qed.

Lemma bin_template_handled peq op : binop_handled op = true -> op <> KIn -> exists t, bin_template peq op = Some t.
Proof. destruct op; cbn; intros H Hin; try discriminate H; try congruence; eauto. Qed.

Section Args.
Variables (c : ctx) (t : list tpart).

Definition warg (i : nat) (a : expr) : res (list piece) :=
  match arg_use t i with
  | Some true => wx c WMaybe a
  | Some false => wx c WPlain a
  | None => Ok []
  end.

Fixpoint wargs (i : nat) (l : list expr) : list (res (list piece)) :=
  match l with
  | [] => []
  | a :: r => warg i a :: wargs (S i) r
  end.
End Args.

Definition arity_err_pos (lp rp : span) : option nat :=
  if Nat.leb (span_end_ lp) (span_start_ rp) then Some (span_end_ lp) else None.

Lemma wx_call c w f lp args rp :
  wx c w (ECall f lp args rp) =
  wrapped (needs_wrap w (ECall f lp args rp))
    match known_func (iname f) with
    | Some (wr, _) =>
      if negb (arity_ok (writer_arity wr) (length args)) then Err (arity_err_pos lp rp)
      else fill_template (writer_template wr) (wargs c (writer_template wr) 0 args)
    | None =>
      do pargs <- sequence (map (wx c WPlain) args);
      Ok (PFunc (iname f) :: lit "(" ++ join_pieces (lit ", ") pargs ++ lit ")")
    end.
Proof. reflexivity. Qed.

Lemma wx_paren c w l x r : wx c w (EParen l x r) = wx c w x.
Proof. reflexivity. Qed.

Lemma needs_wrap_qual w ps : needs_wrap w (EQual ps) = false.
Proof. destruct w; reflexivity. Qed.

Lemma needs_wrap_lit w s k v : needs_wrap w (ELit s k v) = false.
Proof. destruct w; reflexivity. Qed.

Definition unbound_qual (c : ctx) (ps : list ident) (errpos : span) : res (list piece) :=
  if mode_eqb (c_mode c) ModeLet then Err (span_start errpos) else write_parts (c_mode c) true ps.

Lemma wx_qual c w ps :
  wx c w (EQual ps) =
  match ps with
  | [p] =>
    if negb (iquoted p) then
      match scope_get (c_scope c) (iname p) with
      | Some sql => Ok sql
      | None =>
        match assoc_str builtin_idents (iname p) with
        | Some sql => Ok [PLit sql]
        | None => unbound_qual c ps (ispan p)
        end
      end
    else unbound_qual c ps (ispan p)
  | _ => unbound_qual c ps (gspan (g_expr (EQual ps)))
  end.
Proof. destruct w; reflexivity. Qed.

Lemma wx_lit c w s k v :
  wx c w (ELit s k v) =
  match k with
  | KNumber => Ok [PNum v]
  | KString => Ok [PStr v]
  | _ => Ok [PHole (L "NULL /* unhandled literal */")]
  end.
Proof. destruct w; reflexivity. Qed.

Definition sign_text (op : kind) : list piece :=
  match op with KPlus => lit "+" | KMinus => lit "-" | _ => [PHole (L "/* unhandled unary op */ ")] end.

Lemma wx_unary c w s op x :
  wx c w (EUnary s op x) =
  wrapped (needs_wrap w (EUnary s op x)) (do px <- wx c WOperand x; Ok (sign_text op ++ px)).
Proof. reflexivity. Qed.

Lemma wx_in c w x i lp vs rp :
  wx c w (EIn x i lp vs rp) =
  wrapped (needs_wrap w (EIn x i lp vs rp))
    (do px <- wx c WMaybe x; do pvs <- sequence (map (wx c WMaybe) vs);
     Ok (px ++ lit " IN (" ++ join_pieces (lit ", ") pvs ++ lit ")")).
Proof. reflexivity. Qed.

Lemma wx_index c w x lb i rb :
  wx c w (EIndex x lb i rb) =
  wrapped (needs_wrap w (EIndex x lb i rb))
    (do px <- wx c WOperand x; do pi <- wx c WPlain i; Ok (px ++ lit "[" ++ pi ++ lit "]")).
Proof. reflexivity. Qed.

Section Filled.
Local Open Scope nat_scope.
Definition got (r : res (list piece)) : list piece := match r with Ok p => p | Err _ => [] end.

Fixpoint tinst (t : list tpart) (pas : list (list piece)) : list piece :=
  match t with
  | [] => []
  | T_Lit s :: r => PLit s :: tinst r pas
  | T_Arg _ i :: r => nth i pas [] ++ tinst r pas
  | T_Rest i sep _ :: r => flat_map (fun a => PLit sep :: a) (skipn i pas) ++ tinst r pas
  end.

Definition part_uses (p : tpart) (i : nat) : bool :=
  match p with T_Lit _ => false | T_Arg _ j => Nat.eqb i j | T_Rest j _ _ => Nat.leb j i end.

(** the arguments of which a part of [t] speaks, each with property [P] *)
Definition part_reads {X} (P : X -> Prop) (xs : list X) (d : X) (p : tpart) : Prop :=
  match p with T_Lit _ => True | T_Arg _ i => P (nth i xs d) | T_Rest j _ _ => Forall P (skipn j xs) end.

Lemma arg_use_find t i :
  arg_use t i = match find (fun p => part_uses p i) t with Some (T_Arg mp _ | T_Rest _ _ mp) => Some mp | _ => None end.
Proof.
  unfold arg_use.
  induction t as [|p r IH]; [reflexivity|]. cbn [fold_left find].
  destruct p as [s|mp j|j sep mp]; cbn [part_uses]; [exact IH| |].
  - destruct (Nat.eqb i j); [|exact IH]. clear IH. induction r as [|q r IHr]; [reflexivity|exact IHr].
  - destruct (Nat.leb j i); [|exact IH]. clear IH. induction r as [|q r IHr]; [reflexivity|exact IHr].
Qed.

Lemma arg_use_in t p i : In p t -> part_uses p i = true -> arg_use t i <> None.
Proof.
  intros Hp Hu. rewrite arg_use_find. destruct (find (fun p => part_uses p i) t) as [q|] eqn:E.
  - apply find_some in E as [_ Hq]. destruct q; [discriminate Hq|discriminate|discriminate].
  - rewrite (find_none _ _ E p Hp) in Hu. discriminate.
Qed.

Definition wrap_of (maybe_paren : bool) : wrap := if maybe_paren then WMaybe else WPlain.

Lemma warg_eq c t i a : warg c t i a = match arg_use t i with Some mp => wx c (wrap_of mp) a | None => Ok [] end.
Proof. unfold warg. destruct (arg_use t i) as [[|]|]; reflexivity. Qed.

Lemma nth_of_oks {X} (rs : list (res X)) xs d i : Forall2 (fun r x => r = Ok x) rs xs -> nth i rs (Ok d) = Ok (nth i xs d).
Proof. intros H. revert i. induction H as [|r x rs xs -> _ IH]; intros [|i]; cbn [nth]; auto. Qed.

Lemma fill_template_ok t rs b : fill_template t rs = Ok b ->
  b = tinst t (map got rs) /\ Forall (part_reads (fun r => r = Ok (got r)) rs (Ok [])) t.
Proof.
  revert b. induction t as [|p t IH]; intros b H; cbn [fill_template] in H; [injection H as <-; split; constructor|].
  destruct p as [s|mp i|i sep mp].
  - apply bind_ok in H as (tl & Htl & [= <-]). destruct (IH _ Htl) as [-> Hr]. split; [reflexivity|constructor; [exact I|exact Hr]].
  - apply bind_ok in H as (a & Ha & H). apply bind_ok in H as (tl & Htl & [= <-]). destruct (IH _ Htl) as [-> Hr].
    cbn [tinst]. change (@nil piece) with (got (Ok [])) at 1. rewrite map_nth, Ha. split; [reflexivity|].
    constructor; [cbn [part_reads]; rewrite Ha; reflexivity|exact Hr].
  - apply bind_ok in H as (rest & Hrest & H). apply bind_ok in H as (tl & Htl & [= <-]). destruct (IH _ Htl) as [-> Hr].
    apply sequence_ok in Hrest. cbn [tinst]. rewrite skipn_map.
    assert (Hg : rest = map got (skipn i rs) /\ Forall (fun r => r = Ok (got r)) (skipn i rs)).
    { clear - Hrest. induction Hrest as [|r x l xs -> _ [-> IHl]]; split; constructor; auto. }
    destruct Hg as [-> Hg]. split; [reflexivity|constructor; [exact Hg|exact Hr]].
Qed.

Lemma arg_use_some t i mp : arg_use t i = Some mp -> exists p, In p t /\ part_uses p i = true.
Proof.
  rewrite arg_use_find. destruct (find (fun p => part_uses p i) t) as [q|] eqn:E; [|discriminate].
  intros _. exists q. apply (find_some _ _ E).
Qed.

Lemma reads_nth {X} (P : X -> Prop) d p : forall (xs : list X) k, part_reads P xs d p -> part_uses p k = true -> k < length xs -> P (nth k xs d).
Proof.
  destruct p as [s|mp j|j sep mp]; cbn [part_reads part_uses]; intros xs k H Hu Hk; [discriminate| |].
  - apply Nat.eqb_eq in Hu. subst k. exact H.
  - apply Nat.leb_le in Hu. revert j k H Hu Hk. induction xs as [|x xs IH]; intros j k H Hu Hk; [inversion Hk|].
    destruct j as [|j]; [apply Forall_nth; assumption|]. destruct k as [|k]; [lia|].
    apply (IH j k H); cbn [length] in Hk; lia.
Qed.

Lemma nth_reads {X} (P : X -> Prop) d p (xs : list X) :
  (forall k, k < length xs -> part_uses p k = true -> P (nth k xs d)) -> (forall mp i, p = T_Arg mp i -> i < length xs) -> part_reads P xs d p.
Proof.
  destruct p as [s|mp j|j sep mp]; cbn [part_reads part_uses]; intros H Hfit; [exact I| |].
  - apply H; [eapply Hfit; reflexivity|apply Nat.eqb_refl].
  - clear Hfit. revert j H. induction xs as [|x xs IH]; intros j H; [rewrite skipn_nil; constructor|].
    destruct j as [|j].
    + apply Forall_nth. intros k d' Hk. rewrite (nth_indep _ d' d Hk). apply H; [exact Hk|reflexivity].
    + apply IH. intros k Hk Hu. apply (H (S k)); [cbn [length]; lia|exact Hu].
Qed.

Lemma Forall2_len {X Y} (R : X -> Y -> Prop) l l' : Forall2 R l l' -> length l = length l'.
Proof. induction 1; cbn [length]; congruence. Qed.

Lemma Forall2_nth {X Y} (R : X -> Y -> Prop) d d' l l' i : Forall2 R l l' -> R d d' -> R (nth i l d) (nth i l' d').
Proof. intros H Hd. revert i. induction H as [|x y l l' Hxy _ IH]; intros [|i]; cbn [nth]; auto. Qed.

Lemma Forall2_skipn {X Y} (R : X -> Y -> Prop) l l' i : Forall2 R l l' -> Forall2 R (skipn i l) (skipn i l').
Proof. intros H. revert i. induction H as [|x y l l' Hxy Hl IH]; intros [|i]; cbn [skipn]; auto. Qed.

Lemma wargs_length c t : forall args i, length (wargs c t i args) = length args.
Proof. induction args as [|a r IH]; intros i; cbn [wargs length]; [reflexivity|]. rewrite IH. reflexivity. Qed.

Lemma wargs_nth c t : forall args i k, k < length args ->
  exists a, In a args /\ nth k (wargs c t i args) (Ok []) = warg c t (i + k) a.
Proof.
  induction args as [|a r IH]; intros i k Hk; [inversion Hk|]. destruct k as [|k]; cbn [wargs nth].
  - exists a. rewrite Nat.add_0_r. split; [left|]; reflexivity.
  - destruct (IH (S i) k) as (a' & Hin & E); [cbn [length] in Hk; lia|]. exists a'. rewrite Nat.add_succ_r. split; [right; exact Hin|exact E].
Qed.

(** arguments the template does not mention are written as nothing *)
Theorem fill_wargs_ok c t args b : fill_template t (wargs c t 0 args) = Ok b ->
  exists pas, Forall2 (fun r pa => r = Ok pa) (wargs c t 0 args) pas /\ b = tinst t pas.
Proof.
  intros H. apply fill_template_ok in H as [-> Hr]. exists (map got (wargs c t 0 args)). split; [|reflexivity].
  assert (Hall : Forall (fun r => r = Ok (got r)) (wargs c t 0 args)).
  { apply Forall_nth. intros k d Hk. rewrite (nth_indep _ d (Ok []) Hk).
    destruct (arg_use t k) as [mp|] eqn:Eu.
    - apply arg_use_some in Eu as (p & Hp & Hu). rewrite Forall_forall in Hr. exact (reads_nth _ _ _ _ k (Hr p Hp) Hu Hk).
    - rewrite wargs_length in Hk. destruct (wargs_nth c t args 0 k Hk) as (a & _ & ->). cbn [Nat.add]. rewrite warg_eq, Eu. reflexivity. }
  clear Hr. induction Hall as [|r l Hr' _ IH]; cbn [map]; constructor; assumption.
Qed.

Lemma wargs_reads c t args pas (P : list piece -> Prop) :
  (forall a w pa, In a args -> wx c w a = Ok pa -> P pa) ->
  (forall mp i, In (T_Arg mp i) t -> i < length args) ->
  Forall2 (fun r pa => r = Ok pa) (wargs c t 0 args) pas ->
  Forall (part_reads P pas []) t.
Proof.
  intros HP Hfit H2. pose proof (Forall2_len _ _ _ H2) as Hlen. rewrite wargs_length in Hlen.
  apply Forall_forall. intros p Hp. apply nth_reads.
  - intros k Hk Hu. rewrite <- Hlen in Hk. destruct (wargs_nth c t args 0 k Hk) as (a & Ha & Hn). cbn [Nat.add] in Hn.
    rewrite (nth_of_oks _ _ _ _ H2), warg_eq in Hn.
    destruct (arg_use t k) as [mp|] eqn:Eu; [|exfalso; exact (arg_use_in t p k Hp Hu Eu)].
    exact (HP a _ _ Ha (eq_sym Hn)).
  - intros mp i ->. rewrite <- Hlen. exact (Hfit mp i Hp).
Qed.

End Filled.

Section Subq.
Variables (source : str) (c : ctx) (s : subq).

Definition subq_body : res (list piece) :=
  let src := render_source (sq_source s) in
  match sq_op s with
  | None | Some (OAs _ _ _) => Ok (lit "SELECT * FROM " ++ src)
  | Some (OProject _ _ cols) =>
    do cs <- sequence (map (fun col =>
        do px <- match pc_x col with
                 | None => wexpr c (EQual [pc_name col])
                 | Some x => wexpr c x
                 end;
        Ok (px ++ lit " AS " ++ [PIdent (iname (pc_name col))])) cols);
    Ok (lit "SELECT " ++ join_pieces (lit ", ") cs ++ lit " FROM " ++ src)
  | Some (OExtend _ _ cols) =>
    do cs <- write_ext_cols source c cols;
    Ok (lit "SELECT *" ++ flat_map (fun x => lit ", " ++ x) cs ++ lit " FROM " ++ src)
  | Some (OSummarize _ _ cols _ groupby) =>
    do gs <- write_ext_cols source c groupby;
    do cs <- write_ext_cols source c cols;
    do gb <- (match groupby with
              | [] => Ok []
              | _ => do ks <- sequence (map (fun col => wexpr c (ec_x col)) groupby);
                     Ok (lit " GROUP BY " ++ join_pieces (lit ", ") ks)
              end);
    Ok (lit "SELECT " ++ join_pieces (lit ", ") (gs ++ cs) ++ lit " FROM " ++ src ++ gb)
  | Some (OWhere _ _ p) =>
    do px <- wexpr c p;
    Ok (lit "SELECT * FROM " ++ src ++ lit " WHERE " ++ px)
  | Some (OCount _ _) => Ok (lit "SELECT COUNT(*) AS ""count()"" FROM " ++ src)
  | Some (ORender _ _ chart _ _ props _) =>
    Ok ([PLit (L "SELECT *," ++ [10] ++ L "    "); PStr (iname chart)] ++ lit " as ""render_type"""
        ++ flat_map (fun p => [PLit ([44; 10] ++ L "    "); PStr (render_value (rp_value p))] ++ lit " as "
                              ++ [PIdent (L "render_prop_" ++ iname (rp_name p))]) props
        ++ [PLit ([10] ++ L "FROM ")] ++ src)
  | Some _ => Ok [PHole (L "SELECT NULL /* unsupported operator */")]
  end.

Definition subq_sort : res (list piece) :=
  match sq_sort s with Some terms => write_sort c terms | None => Ok [] end.

Definition subq_take : res (list piece) :=
  match sq_take s with Some n => do pn <- wexpr c n; Ok (lit " LIMIT " ++ pn) | None => Ok [] end.

Lemma write_subq_eq :
  write_subq source c s = do body <- subq_body; do srt <- subq_sort; do tk <- subq_take; Ok (body ++ srt ++ tk).
Proof. reflexivity. Qed.
End Subq.
