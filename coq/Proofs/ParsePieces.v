(** * C15: Parse reports the statements in the order and number of the non-empty pieces of
    SplitStatements, each standing for the tokens its piece has when scanned alone, moved to the
    piece's offset. *)
From PQL Require Import Spec.FlattenStmt Proofs.ParserSoundStmt Proofs.NoSemi Proofs.ScanCut Proofs.Locality.
Local Open Scope list_scope.
Local Open Scope nat_scope.
Local Notation length := List.length (only parsing).

Fixpoint scans_of (off : nat) (ps : list str) : list (list token) :=
  match ps with
  | [] => []
  | p :: r => map (shift_tok off) (scan p) :: scans_of (S (off + length p)) r
  end.

Definition is_nil {A} (l : list A) : bool := match l with [] => true | _ => false end.
Definition nonempty {A} (ls : list (list A)) : list (list A) := filter (fun l => negb (is_nil l)) ls.

Lemma all_nosemi_of_bool ts : no_semi ts = true -> all_nosemi ts.
Proof.
  induction ts as [|t r IH]; intros H; [constructor|]. cbn [no_semi] in H. apply andb_prop in H as [Ht Hr].
  constructor; [|apply IH; exact Hr]. unfold nosemi_tok. intros E. rewrite E in Ht. discriminate.
Qed.

Lemma all_nosemi_shift k ts : all_nosemi ts -> all_nosemi (map (shift_tok k) ts).
Proof. induction 1; cbn [map]; constructor; assumption. Qed.

Lemma stmt_nonempty s ts : toks_stmt s ts -> ts <> [].
Proof. intros H. destruct H as [? ? ? ? ? ? ? ? ? ? ? ?|t ts (a & b & -> & _)]; discriminate. Qed.

Lemma nonempty_cons {A} (l : list A) ls : l <> [] -> nonempty (l :: ls) = l :: nonempty ls.
Proof. destruct l; [contradiction|reflexivity]. Qed.

Lemma prog_pieces ss ts : toks_prog ss ts -> Forall2 toks_stmt ss (nonempty (semi_pieces ts)).
Proof.
  induction 1 as [|semi ss rest Hsemi _ IH|s ts Hs|s ts semi ss rest Hs Hsemi _ IH].
  - constructor.
  - cbn [semi_pieces]. unfold is_kind. rewrite Hsemi. exact IH.
  - rewrite (semi_pieces_last _ (stmt_nosemi _ _ Hs)), (nonempty_cons _ _ (stmt_nonempty _ _ Hs)). repeat constructor. exact Hs.
  - rewrite (semi_pieces_cut _ _ _ (stmt_nosemi _ _ Hs) Hsemi), (nonempty_cons _ _ (stmt_nonempty _ _ Hs)). constructor; assumption.
Qed.

Lemma join_scans_cons off p q r :
  join_scans off (p :: q :: r) = map (shift_tok off) (scan p) ++ semi_tok (off + length p) :: join_scans (S (off + length p)) (q :: r).
Proof. reflexivity. Qed.

Lemma pieces_of_join : forall ps off, ps <> [] -> (forall p, In p ps -> no_semi (scan p) = true) ->
  semi_pieces (join_scans off ps) = scans_of off ps.
Proof.
  induction ps as [|p r IH]; intros off Hne Hall; [contradiction|].
  assert (Hp : all_nosemi (map (shift_tok off) (scan p))) by (apply all_nosemi_shift, all_nosemi_of_bool, Hall; left; reflexivity).
  destruct r as [|q r'].
  - apply semi_pieces_last, Hp.
  - rewrite join_scans_cons, (semi_pieces_cut _ (semi_tok _) _ Hp eq_refl). cbn [scans_of]. f_equal.
    apply IH; [discriminate|]. intros p0 Hin. apply Hall. right. exact Hin.
Qed.

Theorem parse_pieces s ss : parse s = ParseOk ss ->
  Forall2 toks_stmt ss (nonempty (scans_of 0 (split_statements s))).
Proof.
  intros H. apply parse_sound in H. rewrite (scan_locality s) in H. apply prog_pieces in H.
  rewrite pieces_of_join in H; [exact H|apply split_statements_nonempty|].
  intros p Hin. apply pieces_have_no_semi with (s := s). exact Hin.
Qed.

Corollary parse_count s ss : parse s = ParseOk ss ->
  length ss = length (nonempty (scans_of 0 (split_statements s))).
Proof. intros H. apply parse_pieces in H. induction H; cbn [length]; congruence. Qed.
