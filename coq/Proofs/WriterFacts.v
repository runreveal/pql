(** * Small facts about Compile as a whole: source parentheses only group, successful output
    ends with the terminator, lets after the query do nothing, a later let shadows. *)
From PQL Require Import Model.Compile Proofs.ExprInd Proofs.SplitSteps.
From PQL Require Export Proofs.WriterEqns.
From Coq Require Import String.
Local Open Scope list_scope.

Theorem wx_strip_parens c w e : wx c w (strip_parens e) = wx c w e.
Proof. induction e; try reflexivity. cbn [strip_parens]. rewrite wx_paren. assumption. Qed.

Lemma bind_ok_iff {A B} (r : res A) (f : A -> res B) :
  (forall a, exists b, f a = Ok b) -> (exists b, bind r f = Ok b) <-> (exists a, r = Ok a).
Proof.
  intros Hf. destruct r as [a|p]; cbn [bind].
  - split; [eauto|]. intros _. apply Hf.
  - split; intros [x Hx]; discriminate.
Qed.

Lemma render_app a b : render (a ++ b) = render a ++ render b.
Proof. unfold render. apply flat_map_app. Qed.

Theorem compile_stmts_ends_with_semicolon source params ss ps :
  compile_stmts source params ss = Ok ps -> exists ps', ps = ps' ++ lit ";".
Proof.
  intros H. apply compile_stmts_ok in H as (sc & t & _ & _ & H).
  apply write_query_ok in H as (subs & q & rctes & w & body & _ & _ & _ & _ & ->).
  eexists. rewrite !app_assoc. reflexivity.
Qed.

Theorem compile_ok_nonempty params s ps : compile params s = COk ps -> render ps <> [].
Proof.
  unfold compile. destruct (parse s) as [ss|e| |]; try discriminate.
  destruct (compile_stmts s params ss) as [ps0|p] eqn:E; [|discriminate].
  intros [= <-]. apply compile_stmts_ends_with_semicolon in E as (ps' & ->).
  rewrite render_app. intros H. apply app_eq_nil in H as [_ H]. vm_compute in H. discriminate.
Qed.

Lemma stmt_loop_after_query sc t ss :
  (forall s, In s ss -> match s with SLet _ _ _ _ => True | STab _ => False end) ->
  stmt_loop sc (Some t) ss = Ok (sc, Some t).
Proof.
  induction ss as [|s r IH]; intros H; cbn [stmt_loop]; [reflexivity|].
  pose proof (H s (or_introl eq_refl)) as Hs. destruct s as [kw name a x|t']; [|destruct Hs].
  apply IH. intros s' Hs'. apply H. right. exact Hs'.
Qed.

Lemma stmt_loop_app sc q pre post :
  stmt_loop sc q (pre ++ post) =
  match stmt_loop sc q pre with Ok (sc', q') => stmt_loop sc' q' post | Err p => Err p end.
Proof.
  revert sc q; induction pre as [|s r IH]; intros sc q; cbn [app stmt_loop]; [reflexivity|].
  destruct s as [kw name a x|t].
  - destruct q as [t0|]; [apply IH|].
    destruct (woperand _ x) as [v|p]; cbn [bind]; [apply IH|reflexivity].
  - destruct q as [t0|]; [reflexivity|apply IH].
Qed.

Definition is_let (s : stmt) : bool := match s with SLet _ _ _ _ => true | STab _ => false end.

Lemma stmt_loop_lets pre : forall sc sc' q', forallb is_let pre = true ->
  stmt_loop sc None pre = Ok (sc', q') -> q' = None.
Proof.
  intros sc sc' q' Hl H. rewrite forallb_forall in Hl.
  destruct (stmt_loop_inv (fun _ => True) (fun s => is_let s = true) (fun _ _ _ _ _ _ _ _ _ => I) pre _ _ _ _
              (proj2 (Forall_forall _ _) Hl) I H) as [_ [Hq|(t & _ & Hin)]]; [exact Hq|].
  discriminate (Hl _ Hin).
Qed.

Theorem compile_stmts_lets_after_query source params pre t post :
  forallb is_let pre = true -> forallb is_let post = true ->
  compile_stmts source params (pre ++ STab t :: post) = compile_stmts source params (pre ++ [STab t]).
Proof.
  intros Hpre Hpost. unfold compile_stmts.
  rewrite !stmt_loop_app.
  destruct (stmt_loop _ None pre) as [[sc' q']|p] eqn:E; [|reflexivity].
  apply stmt_loop_lets in E; [subst q'|exact Hpre].
  cbn [stmt_loop]. rewrite stmt_loop_after_query; [reflexivity|].
  intros s Hs. rewrite forallb_forall in Hpost. specialize (Hpost s Hs). destruct s; [exact I|discriminate].
Qed.

Theorem scope_shadowing sc n v v' : scope_get ((n, v') :: (n, v) :: sc) n = Some v'.
Proof.
  cbn [scope_get]. rewrite str_eqb_refl. reflexivity.
Qed.
