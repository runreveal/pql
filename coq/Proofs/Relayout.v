(** The tree depends on the tokens' kinds and values only (C07, layout).  [rn_* fs fe] renames every
    offset a tree records: starts through [fs], ends through [fe].  The token relations of
    Spec/Flatten*.v are natural in such a renaming and the grammar predicate ignores offsets, so by
    [parse_characterised] two sources whose tokens agree in kinds and values parse alike, the second
    tree being the first with offsets renamed token by token. *)
From PQL Require Import Spec.Grammar Proofs.ExprInd Proofs.LexerFacts Proofs.ParserReject
  Proofs.ParserGramStmt Proofs.Layout.
From Coq Require Import Lia.
Local Open Scope list_scope.
Local Open Scope nat_scope.
Local Notation length := List.length (only parsing).

Section Rename.
Variables fs fe : nat -> nat.

Definition rn_span (s : span) : span := match s with Some (a, b) => Some (fs a, fe b) | None => None end.
Definition rn_tok (t : token) : token := mkTok (tkind t) (fs (tstart t)) (fe (tend t)) (tvalue t).
Definition rn_ident (i : ident) : ident := mkIdent (iname i) (rn_span (ispan i)) (iquoted i).

Fixpoint rn_expr (e : expr) : expr :=
  match e with
  | EQual ps => EQual (map rn_ident ps)
  | EBin x sp op y => EBin (rn_expr x) (rn_span sp) op (rn_expr y)
  | EUnary sp op x => EUnary (rn_span sp) op (rn_expr x)
  | EIn x isp lsp vs rsp => EIn (rn_expr x) (rn_span isp) (rn_span lsp) (map rn_expr vs) (rn_span rsp)
  | EParen lsp x rsp => EParen (rn_span lsp) (rn_expr x) (rn_span rsp)
  | ELit sp k v => ELit (rn_span sp) k v
  | ECall f lsp args rsp => ECall (rn_ident f) (rn_span lsp) (map rn_expr args) (rn_span rsp)
  | EIndex x lsp i rsp => EIndex (rn_expr x) (rn_span lsp) (rn_expr i) (rn_span rsp)
  end.

Definition rn_sort_term (t : sort_term) : sort_term :=
  mkSortTerm (rn_expr (st_x t)) (st_asc t) (rn_span (st_ascspan t)) (st_nullsfirst t) (rn_span (st_nullsspan t)).
Definition rn_proj_col (c : proj_col) : proj_col := mkProjCol (rn_ident (pc_name c)) (rn_span (pc_assign c)) (option_map rn_expr (pc_x c)).
Definition rn_ext_col (c : ext_col) : ext_col := mkExtCol (option_map rn_ident (ec_name c)) (rn_span (ec_assign c)) (rn_expr (ec_x c)).
Definition rn_render_prop (p : render_prop) : render_prop := mkRenderProp (rn_ident (rp_name p)) (rn_span (rp_assign p)) (rn_expr (rp_value p)).

Fixpoint rn_op (o : operator) : operator :=
  match o with
  | OCount p k => OCount (rn_span p) (rn_span k)
  | OWhere p k x => OWhere (rn_span p) (rn_span k) (rn_expr x)
  | OSort p k ts => OSort (rn_span p) (rn_span k) (map rn_sort_term ts)
  | OTake p k n => OTake (rn_span p) (rn_span k) (rn_expr n)
  | OTop p k n b c => OTop (rn_span p) (rn_span k) (rn_expr n) (rn_span b) (rn_sort_term c)
  | OProject p k cs => OProject (rn_span p) (rn_span k) (map rn_proj_col cs)
  | OExtend p k cs => OExtend (rn_span p) (rn_span k) (map rn_ext_col cs)
  | OSummarize p k cs b gs => OSummarize (rn_span p) (rn_span k) (map rn_ext_col cs) (rn_span b) (map rn_ext_col gs)
  | OJoin p k ks ka fl lp rsrc rops rp osp conds =>
      OJoin (rn_span p) (rn_span k) (rn_span ks) (rn_span ka) (option_map rn_ident fl) (rn_span lp)
            (rn_ident rsrc) (map rn_op rops) (rn_span rp) (rn_span osp) (map rn_expr conds)
  | OAs p k i => OAs (rn_span p) (rn_span k) (rn_ident i)
  | ORender p k ch w lp ps rp => ORender (rn_span p) (rn_span k) (rn_ident ch) (rn_span w) (rn_span lp) (map rn_render_prop ps) (rn_span rp)
  end.

Definition rn_tab (t : tabular) : tabular := mkTab (rn_ident (tsrc t)) (map rn_op (tops t)).
Definition rn_stmt (s : stmt) : stmt :=
  match s with
  | SLet k i a x => SLet (rn_span k) (rn_ident i) (rn_span a) (rn_expr x)
  | STab t => STab (rn_tab t)
  end.
Definition rn_prog (ss : list stmt) : list stmt := map rn_stmt ss.
Definition rn_toks (ts : list token) : list token := map rn_tok ts.

Lemma rn_tok_span t : tok_span (rn_tok t) = rn_span (tok_span t).
Proof. reflexivity. Qed.

Lemma rn_is_tok k sp t : is_tok k sp t -> is_tok k (rn_span sp) (rn_tok t).
Proof. intros [Hk Hs]. split; [exact Hk|]. rewrite rn_tok_span, Hs. reflexivity. Qed.

Lemma rn_kw_tok ws sp t : kw_tok ws sp t -> kw_tok ws (rn_span sp) (rn_tok t).
Proof. intros (Hk & Hv & Hs). repeat split; [exact Hk|exact Hv|]. rewrite rn_tok_span, Hs. reflexivity. Qed.

Lemma rn_kw_tok_self ws t : kw_tok ws (tok_span t) t -> kw_tok ws (tok_span (rn_tok t)) (rn_tok t).
Proof. intros H. apply (rn_kw_tok ws (tok_span t) t H). Qed.

Lemma rn_ident_tok i t : ident_tok i t -> ident_tok (rn_ident i) (rn_tok t).
Proof. intros (Hk & Hv & Hs). repeat split; cbn [rn_ident iquoted iname ispan]; [exact Hk|exact Hv|]. rewrite rn_tok_span, Hs. reflexivity. Qed.

Lemma rn_kind t : tkind (rn_tok t) = tkind t.
Proof. reflexivity. Qed.

Lemma rn_toks_app a b : rn_toks (a ++ b) = rn_toks a ++ rn_toks b.
Proof. apply map_app. Qed.

(** [rn_norm] distributes [rn_toks] over the token list of a constructor; the database [rn] then has the
    constructors and the renamed premises *)
Ltac rn_norm := unfold rn_toks in *; repeat (rewrite ?map_app; cbn [map]); fold rn_toks.

Lemma map_not_nil {A B} (f : A -> B) l : l <> [] -> map f l <> [].
Proof. destruct l; [congruence|discriminate]. Qed.

Hint Resolve rn_is_tok rn_kw_tok rn_kw_tok_self rn_ident_tok map_not_nil : rn.
Hint Constructors toks_qual toks_expr toks_list toks_args toks_sep toks_dir toks_nulls toks_sort_term toks_ext_col
  toks_proj_col toks_render_prop toks_summ toks_join_kind toks_render_with toks_op toks_ops toks_stmt toks_prog : rn.

Lemma rn_qual ps ts : toks_qual ps ts -> toks_qual (map rn_ident ps) (rn_toks ts).
Proof. induction 1; cbn [map rn_toks]; auto with rn. Qed.
Hint Resolve rn_qual : rn.

Lemma rn_expr_all :
  (forall e ts, toks_expr e ts -> toks_expr (rn_expr e) (rn_toks ts)) /\
  (forall es ts, toks_list es ts -> toks_list (map rn_expr es) (rn_toks ts)) /\
  (forall es ts, toks_args es ts -> toks_args (map rn_expr es) (rn_toks ts)).
Proof.
  apply toks_expr_mutind; intros; cbn [rn_expr map]; rn_norm; auto with rn.
  constructor; auto. rewrite rn_tok_span. congruence.
Qed.

Definition rn_expr_toks := proj1 rn_expr_all.
Definition rn_list_toks := proj1 (proj2 rn_expr_all).
Hint Resolve rn_expr_toks rn_list_toks : rn.

Lemma rn_sep {A} (P : A -> list token -> Prop) (f : A -> A) :
  (forall a ta, P a ta -> P (f a) (rn_toks ta)) ->
  forall l ts, toks_sep P l ts -> toks_sep P (map f l) (rn_toks ts).
Proof. intros HP. induction 1; cbn [map]; rn_norm; auto with rn. Qed.
Hint Resolve rn_sep : rn.

Lemma rn_dir asc sp dflt ts : toks_dir asc sp dflt ts -> toks_dir asc (rn_span sp) dflt (rn_toks ts).
Proof. intros []; cbn [rn_toks map rn_span]; auto with rn. Qed.

(** the span of `nulls first` is written with the two tokens' own offsets, so the constructor has to
    be given the renamed tokens *)
Lemma rn_nulls dflt nf sp ts : toks_nulls dflt nf sp ts -> toks_nulls dflt nf (rn_span sp) (rn_toks ts).
Proof.
  intros [|t t2 H1 H2|t t2 H1 H2]; cbn [rn_toks map rn_span]; [constructor| |].
  - apply (tn_first dflt (rn_tok t) (rn_tok t2)); auto with rn.
  - apply (tn_last dflt (rn_tok t) (rn_tok t2)); auto with rn.
Qed.
Hint Resolve rn_dir rn_nulls : rn.

Lemma rn_sort_term_toks t ts : toks_sort_term t ts -> toks_sort_term (rn_sort_term t) (rn_toks ts).
Proof. intros []. unfold rn_sort_term. cbn [st_x st_asc st_ascspan st_nullsfirst st_nullsspan]. rn_norm. eauto with rn. Qed.

Lemma rn_ext_col_toks c ts : toks_ext_col c ts -> toks_ext_col (rn_ext_col c) (rn_toks ts).
Proof. intros []; unfold rn_ext_col; cbn [ec_name ec_assign ec_x option_map rn_span rn_toks map]; auto with rn. Qed.

Lemma rn_proj_col_toks c ts : toks_proj_col c ts -> toks_proj_col (rn_proj_col c) (rn_toks ts).
Proof. intros []; unfold rn_proj_col; cbn [pc_name pc_assign pc_x option_map rn_span rn_toks map]; auto with rn. Qed.

Lemma rn_render_prop_toks c ts : toks_render_prop c ts -> toks_render_prop (rn_render_prop c) (rn_toks ts).
Proof. intros []; unfold rn_render_prop; cbn [rp_name rp_assign rp_value rn_toks map]; auto with rn. Qed.
Hint Resolve rn_sort_term_toks rn_ext_col_toks rn_proj_col_toks rn_render_prop_toks : rn.

Lemma rn_summ cols bsp gs ts : toks_summ cols bsp gs ts ->
  toks_summ (map rn_ext_col cols) (rn_span bsp) (map rn_ext_col gs) (rn_toks ts).
Proof. intros []; rn_norm; auto with rn. Qed.

Lemma rn_join_kind ksp asp fl ts : toks_join_kind ksp asp fl ts ->
  toks_join_kind (rn_span ksp) (rn_span asp) (option_map rn_ident fl) (rn_toks ts).
Proof. intros []; cbn [rn_toks map option_map rn_span]; auto with rn. Qed.

Lemma rn_render_with wsp lsp props rsp ts : toks_render_with wsp lsp props rsp ts ->
  toks_render_with (rn_span wsp) (rn_span lsp) (map rn_render_prop props) (rn_span rsp) (rn_toks ts).
Proof. intros []; rn_norm; auto with rn. Qed.
Hint Resolve rn_summ rn_join_kind rn_render_with : rn.

Lemma rn_op_all :
  (forall o ts, toks_op o ts -> toks_op (rn_op o) (rn_toks ts)) /\
  (forall os ts, toks_ops os ts -> toks_ops (map rn_op os) (rn_toks ts)).
Proof.
  apply toks_op_mutind; intros; cbn [rn_op map]; rn_norm; auto 6 with rn.
  (* sort: the keyword span runs from [n] to [b], as in [rn_nulls] *)
  apply (to_sort _ _ _ (rn_tok n) (rn_tok b)); auto with rn.
Qed.

Lemma rn_stmt_toks s ts : toks_stmt s ts -> toks_stmt (rn_stmt s) (rn_toks ts).
Proof.
  intros [ksp i asp x tk ti ta tx Hk Hi Ha Hx|t ts0 (tsrc0 & tro & -> & Hs & Ho)]; cbn [rn_stmt rn_toks map]; [auto with rn|].
  constructor. exists (rn_tok tsrc0), (rn_toks tro). split; [reflexivity|]. split; [apply rn_ident_tok; exact Hs|apply (proj2 rn_op_all); exact Ho].
Qed.
Hint Resolve rn_stmt_toks : rn.

Theorem rn_prog_toks ss ts : toks_prog ss ts -> toks_prog (rn_prog ss) (rn_toks ts).
Proof. induction 1; cbn [rn_prog map]; rn_norm; auto with rn. Qed.

Lemma rn_is_inner e : is_inner (rn_expr e) = is_inner e.
Proof. destruct e; reflexivity. Qed.
Lemma rn_is_primary e : is_primary (rn_expr e) = is_primary e.
Proof. destruct e; cbn [rn_expr is_primary]; try reflexivity. apply rn_is_inner. Qed.
Lemma rn_hi e : hi (rn_expr e) = hi e.
Proof. destruct e; reflexivity. Qed.
Lemma rn_lo e : lo (rn_expr e) = lo e.
Proof. induction e; cbn [rn_expr lo]; congruence. Qed.

Lemma forallb_map_in {A} (p : A -> bool) (f : A -> A) l : Forall (fun a => p (f a) = p a) l -> forallb p (map f l) = forallb p l.
Proof. induction 1; cbn [map forallb]; congruence. Qed.

Lemma forallb_map_eq {A} (p : A -> bool) (f : A -> A) l : (forall a, p (f a) = p a) -> forallb p (map f l) = forallb p l.
Proof. intros H. apply forallb_map_in, Forall_forall. auto. Qed.

Lemma rn_gexpr e : gexpr (rn_expr e) = gexpr e.
Proof.
  induction e using expr_ind'; cbn [rn_expr gexpr];
    rewrite ?rn_hi, ?rn_lo, ?rn_is_primary, ?rn_is_inner, ?(forallb_map_in gexpr rn_expr) by assumption; congruence.
Qed.

Lemma rn_grow_count x : grow_count (rn_expr x) = grow_count x.
Proof. unfold grow_count. rewrite rn_gexpr. destruct x; reflexivity. Qed.
Lemma rn_gsort_term t : gsort_term (rn_sort_term t) = gsort_term t.
Proof. apply rn_gexpr. Qed.
Lemma rn_gext_col c : gext_col (rn_ext_col c) = gext_col c.
Proof. apply rn_gexpr. Qed.
Lemma rn_gproj_col c : gproj_col (rn_proj_col c) = gproj_col c.
Proof. unfold gproj_col, rn_proj_col. cbn [pc_x]. destruct (pc_x c); cbn [option_map]; [apply rn_gexpr|reflexivity]. Qed.
Lemma rn_grender_prop c : grender_prop (rn_render_prop c) = grender_prop c.
Proof. apply rn_gexpr. Qed.

Lemma rn_gop o : gop (rn_op o) = gop o.
Proof.
  induction o using operator_ind'.
  - destruct o; try discriminate; cbn [rn_op gop];
      rewrite ?rn_gexpr, ?rn_grow_count, ?rn_gsort_term, ?forallb_map_eq
        by auto using rn_gsort_term, rn_gproj_col, rn_gext_col, rn_grender_prop; reflexivity.
  - cbn [rn_op gop]. rewrite (forallb_map_in gop rn_op), (forallb_map_eq gexpr rn_expr) by auto using rn_gexpr. reflexivity.
Qed.

Lemma rn_gstmt s : gstmt (rn_stmt s) = gstmt s.
Proof.
  destruct s as [k i a x|t]; cbn [rn_stmt gstmt]; [apply rn_gexpr|].
  unfold rn_tab. cbn [tsrc tops]. rewrite (forallb_map_eq gop rn_op) by apply rn_gop. reflexivity.
Qed.

Theorem rn_gprog ss : gprog (rn_prog ss) = gprog ss.
Proof. unfold gprog, rn_prog. apply forallb_map_eq, rn_gstmt. Qed.

End Rename.

Definition same_kv (ts ts' : list token) : Prop :=
  Forall2 (fun t t' => tkind t = tkind t' /\ tvalue t = tvalue t') ts ts'.

Fixpoint lookup (tbl : list (nat * nat)) (a : nat) : nat :=
  match tbl with
  | [] => a
  | (x, y) :: r => if Nat.eqb x a then y else lookup r a
  end.

(** offset of the i-th token of the first layout to that of the i-th token of the second *)
Definition starts_map (ts ts' : list token) : nat -> nat := lookup (combine (map tstart ts) (map tstart ts')).
Definition ends_map (ts ts' : list token) : nat -> nat := lookup (combine (map tend ts) (map tend ts')).

Lemma lookup_combine : forall xs ys, NoDup xs -> length xs = length ys -> map (lookup (combine xs ys)) xs = ys.
Proof.
  induction xs as [|x xs IH]; intros [|y ys] Hnd Hlen; try discriminate; [reflexivity|].
  cbn [combine map lookup]. rewrite Nat.eqb_refl. f_equal.
  inversion Hnd as [|? ? Hnotin Hnd']; subst.
  transitivity (map (lookup (combine xs ys)) xs); [|apply IH; [exact Hnd'|cbn [length] in Hlen; lia]].
  apply map_ext_in. intros a Ha. destruct (Nat.eqb x a) eqn:E; [|reflexivity].
  apply Nat.eqb_eq in E. subst a. contradiction.
Qed.

Lemma within_starts_lt lo hi ts : toks_within lo hi ts -> Forall (fun t => lo <= tstart t /\ lo < tend t) ts.
Proof.
  induction 1 as [|lo hi t ts H1 H2 H3 _ IH]; constructor; [lia|].
  eapply Forall_impl; [|exact IH]. cbn beta. intros a [Ha Hb]. lia.
Qed.

Lemma within_nodup lo hi ts : toks_within lo hi ts -> NoDup (map tstart ts) /\ NoDup (map tend ts).
Proof.
  induction 1 as [|lo hi t ts H1 H2 H3 Hw [IH1 IH2]]; cbn [map]; [split; constructor|].
  pose proof (within_starts_lt _ _ _ Hw) as Hall. rewrite Forall_forall in Hall.
  split; constructor; try assumption; intros Hin; apply in_map_iff in Hin as (u & Hu & Hin); specialize (Hall u Hin); lia.
Qed.

Lemma rn_toks_between fs fe ts ts' : same_kv ts ts' ->
  map fs (map tstart ts) = map tstart ts' -> map fe (map tend ts) = map tend ts' -> rn_toks fs fe ts = ts'.
Proof.
  induction 1 as [|t t' ts ts' [Hk Hv] _ IH]; cbn [map rn_toks]; intros Hs He; [reflexivity|].
  injection Hs as Hs1 Hs2. injection He as He1 He2. f_equal; [|apply IH; assumption].
  destruct t as [k a b v], t' as [k' a' b' v']. unfold rn_tok. cbn [tkind tstart tend tvalue] in *. congruence.
Qed.

Lemma same_kv_length ts ts' : same_kv ts ts' -> length ts = length ts'.
Proof. induction 1; cbn [length]; congruence. Qed.

Lemma same_kv_sym ts ts' : same_kv ts ts' -> same_kv ts' ts.
Proof. induction 1 as [|t t' ts ts' [Hk Hv] _ IH]; constructor; [split; congruence|exact IH]. Qed.

Theorem rn_toks_scan s s' : same_kv (scan s) (scan s') ->
  rn_toks (starts_map (scan s) (scan s')) (ends_map (scan s) (scan s')) (scan s) = scan s'.
Proof.
  intros H. pose proof (same_kv_length _ _ H) as Hlen.
  destruct (within_nodup _ _ _ (scan_within s)) as [Hn1 Hn2].
  apply rn_toks_between; [exact H| |]; unfold starts_map, ends_map; apply lookup_combine; try assumption; rewrite !map_length; exact Hlen.
Qed.

Theorem parse_rename fs fe s s' ss : rn_toks fs fe (scan s) = scan s' -> parse s = ParseOk ss ->
  parse s' = ParseOk (rn_prog fs fe ss).
Proof.
  intros Hs Hp. apply parse_characterised in Hp as [Ht Hg]. apply parse_characterised. split.
  - rewrite <- Hs. apply rn_prog_toks, Ht.
  - rewrite rn_gprog. exact Hg.
Qed.

Theorem parse_relayout s s' ss : same_kv (scan s) (scan s') -> parse s = ParseOk ss ->
  parse s' = ParseOk (rn_prog (starts_map (scan s) (scan s')) (ends_map (scan s) (scan s')) ss).
Proof. intros Hkv. apply parse_rename, rn_toks_scan, Hkv. Qed.

Theorem parse_relayout_iff s s' : same_kv (scan s) (scan s') ->
  ((exists ss, parse s = ParseOk ss) <-> (exists ss', parse s' = ParseOk ss')).
Proof.
  intros Hkv. split; intros [ss Hp].
  - eexists. eapply parse_relayout; eassumption.
  - eexists. eapply parse_relayout; [apply same_kv_sym; exact Hkv|exact Hp].
Qed.

Lemma same_kv_of_maps (ts ts' : list token) :
  map (fun t => (tkind t, tvalue t)) ts = map (fun t => (tkind t, tvalue t)) ts' -> same_kv ts ts'.
Proof.
  revert ts'. induction ts as [|t ts IH]; intros [|t' ts'] H; try discriminate; [constructor|].
  cbn [map] in H. injection H as Hk Hv Hr. constructor; [split; assumption|apply IH; exact Hr].
Qed.

Lemma items_kv s : forall (ts : list token) items, (forall t, In t ts -> In t (scan s)) ->
  Forall (fun i => let '(x, k, v) := i in item_ok x k v) items ->
  map (fun i : str * kind * str => fst (fst i)) items = map (tok_text s) ts ->
  map (fun i : str * kind * str => (snd (fst i), snd i)) items = map (fun t => (tkind t, tvalue t)) ts.
Proof.
  induction ts as [|t ts IH]; intros [|[[x k] v] items] Hin Hok Hm; try discriminate; [reflexivity|].
  cbn [map fst snd] in *. injection Hm as Hx Hm. inversion Hok as [|? ? Hi Hok']; subst. cbv beta iota in Hi. destruct Hi as [Hl _].
  pose proof (token_kv_of_text s t (Hin t (or_introl eq_refl))) as Ht. rewrite Hl in Ht. injection Ht as -> ->.
  f_equal. apply IH; [intros u Hu; apply Hin; right; exact Hu|exact Hok'|exact Hm].
Qed.

Lemma spaced_items_ok items body : spaced items body -> Forall (fun i => let '(x, k, v) := i in item_ok x k v) items.
Proof. induction 1; [constructor|constructor; [assumption|constructor]|constructor; assumption]. Qed.

Lemma kvl_kv (ts : list token) (items : list (str * kind * str)) : map tok_kvl ts = map item_kvl items ->
  map (fun t => (tkind t, tvalue t)) ts = map (fun i : str * kind * str => (snd (fst i), snd i)) items.
Proof.
  revert items. induction ts as [|t ts IH]; intros [|[[x k] v] items] H; try discriminate; [reflexivity|].
  cbn [map] in *. injection H as Hk Hv _ Hr. cbn [fst snd]. f_equal; [congruence|apply IH; exact Hr].
Qed.

(** C07, layout: lay the token texts of [s] out again with any gap in front, gaps that begin with a
    white-space byte between them and optionally after the last (white space and // comments inside the
    gaps at will).  The result has the same kinds and values of tokens, so it parses as [s] does. *)
Theorem spaced_same_kv s g0 items body : gap g0 -> spaced items body ->
  map (fun i : str * kind * str => fst (fst i)) items = map (tok_text s) (scan s) ->
  same_kv (scan s) (scan (g0 ++ body)).
Proof.
  intros Hg Hs Hm. apply same_kv_of_maps.
  rewrite (kvl_kv _ _ (scan_spaced g0 items body Hg Hs)).
  symmetry. apply (items_kv s (scan s) items); [auto|apply (spaced_items_ok _ _ Hs)|exact Hm].
Qed.

Theorem parse_spaced s ss g0 items body : gap g0 -> spaced items body ->
  map (fun i : str * kind * str => fst (fst i)) items = map (tok_text s) (scan s) ->
  parse s = ParseOk ss ->
  parse (g0 ++ body) = ParseOk (rn_prog (starts_map (scan s) (scan (g0 ++ body))) (ends_map (scan s) (scan (g0 ++ body))) ss).
Proof. intros Hg Hs Hm Hp. apply parse_relayout; [eapply spaced_same_kv; eassumption|exact Hp]. Qed.

Theorem parse_same_texts s1 s2 ss : map (tok_text s1) (scan s1) = map (tok_text s2) (scan s2) ->
  parse s1 = ParseOk ss ->
  parse s2 = ParseOk (rn_prog (starts_map (scan s1) (scan s2)) (ends_map (scan s1) (scan s2)) ss).
Proof. intros Hm Hp. apply parse_relayout; [apply same_texts_same_kv; exact Hm|exact Hp]. Qed.
