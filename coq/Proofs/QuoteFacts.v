(** * Quoting round trips: what quoteIdentifier / quoteSQLString emit is read back by the SQL lexer
    as exactly one token carrying the original bytes.
    Character codes: 34 double quote, 39 single quote, 92 backslash. *)
From PQL Require Import Model.Compile Spec.SqlLex.
From Coq Require Import Lia.
Local Open Scope list_scope.

Definition esc (q : N) (b : N) : str := if (b =? q)%N then [q; q] else if (b =? 92)%N then [92; 92]%N else [b].

Lemma quote_with_eq q s : quote_with q s = q :: flat_map (esc q) s ++ [q].
Proof. reflexivity. Qed.

(** Standard mode: same token boundaries as ClickHouse mode; the content keeps its doubled backslashes. *)
Definition std_view (s : str) : str := flat_map (fun b => if (b =? 92)%N then [92; 92]%N else [b]) s.

Definition seen (m : sqlmode) (s : str) : str := match m with ClickHouse => s | Standard => std_view s end.

Lemma quoted_tail_esc m q s : q <> 92%N -> forall rest,
  (match rest with c :: _ => (c =? q)%N = false | [] => True end) ->
  quoted_tail m q (flat_map (esc q) s ++ q :: rest) = Some (seen m s, rest).
Proof.
  intros Hq. apply N.eqb_neq in Hq. induction s as [|b s IH]; intros rest Hrest; cbn [flat_map app].
  - cbn [quoted_tail]. rewrite N.eqb_refl. destruct rest as [|c r]; [destruct m; reflexivity|]. rewrite Hrest. destruct m; reflexivity.
  - specialize (IH rest Hrest). unfold esc at 1. destruct (b =? q)%N eqn:Ebq; [|destruct (b =? 92)%N eqn:Eb].
    + apply N.eqb_eq in Ebq. subst b. cbn [app quoted_tail]. rewrite !N.eqb_refl, IH.
      destruct m; cbn [seen std_view flat_map]; rewrite ?Hq; reflexivity.
    + apply N.eqb_eq in Eb. subst b. rewrite N.eqb_sym in Hq. cbn [app quoted_tail]. rewrite Hq. cbn [andb].
      destruct m; cbn [andb]; rewrite ?Hq, ?N.eqb_refl; cbn [andb]; rewrite IH; reflexivity.
    + cbn [app quoted_tail]. rewrite Ebq, Eb. cbn [andb]. rewrite IH.
      destruct m; cbn [seen std_view flat_map]; rewrite ?Eb; reflexivity.
Qed.

Lemma app_cons_assoc {A} (a : list A) x b : a ++ x :: b = (a ++ [x]) ++ b.
Proof. rewrite <- app_assoc. reflexivity. Qed.

Lemma lex_quoted m f q s r : (q = 34 \/ q = 39)%N -> (match r with y :: _ => (y =? q)%N = false | [] => True end) ->
  sql_lex_fuel (S f) m (quote_with q s ++ r) =
    option_map (cons (if (q =? 34)%N then SQuoted (seen m s) else SString (seen m s))) (sql_lex_fuel f m r).
Proof.
  intros Hq Hr. rewrite quote_with_eq. cbn [app]. rewrite <- app_assoc. cbn [app].
  assert (Ht : quoted_tail m q (flat_map (esc q) s ++ q :: r) = Some (seen m s, r)) by (apply quoted_tail_esc; [lia|exact Hr]).
  destruct Hq as [-> | ->]; cbn [sql_lex_fuel is_sql_space N.eqb Pos.eqb orb andb]; rewrite Ht; reflexivity.
Qed.

Lemma lex_quote m q s : (q = 34 \/ q = 39)%N ->
  sql_lex m (quote_with q s) = Some [if (q =? 34)%N then SQuoted (seen m s) else SString (seen m s)].
Proof.
  intros Hq. unfold sql_lex. rewrite <- (app_nil_r (quote_with q s)) at 2. rewrite lex_quoted by (exact Hq || exact I).
  rewrite quote_with_eq. reflexivity.
Qed.

Theorem lex_quote_ident_clickhouse s : sql_lex ClickHouse (quote_ident s) = Some [SQuoted s].
Proof. apply (lex_quote ClickHouse 34). auto. Qed.

Theorem lex_quote_string_clickhouse s : sql_lex ClickHouse (quote_sql_string s) = Some [SString s].
Proof. apply (lex_quote ClickHouse 39). auto. Qed.

Theorem lex_quote_ident_standard s : sql_lex Standard (quote_ident s) = Some [SQuoted (std_view s)].
Proof. apply (lex_quote Standard 34). auto. Qed.

Theorem lex_quote_string_standard s : sql_lex Standard (quote_sql_string s) = Some [SString (std_view s)].
Proof. apply (lex_quote Standard 39). auto. Qed.
