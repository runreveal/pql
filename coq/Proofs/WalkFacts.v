(** * The explicit-stack machine of Walk, driven by the generated table, performs the recursive
    pre-order traversal (property C11, Props/C11.v): each node once, parents before children, a
    [false] answer skipping exactly that node's descendants; it never panics and never visits nil
    on trees whose kinds all have a case and whose pushed fields are present. *)
From PQL Require Import Model.Walk.
From Coq Require Import Lia.
Local Open Scope list_scope.
Local Open Scope nat_scope.

(** a node's children in the order they will be popped *)
Definition pushed (n : gnode) : list witem :=
  match n with
  | GN k fs => match walk_children k with
               | Some pushes => rev (flat_map (push_items k fs) pushes)
               | None => []
               end
  end.

Definition item_node (i : witem) : option gnode := match i with WNode c => Some c | WNil _ => None end.

(** a tree the machine can walk: every kind has a case and everything pushed is a present node *)
Inductive walkable : gnode -> Prop :=
| walkable_intro k fs pushes kids :
    walk_children k = Some pushes ->
    rev (flat_map (push_items k fs) pushes) = map WNode kids ->
    Forall walkable kids ->
    walkable (GN k fs).

Definition kids_of (n : gnode) : list gnode :=
  flat_map (fun i => match i with WNode c => [c] | WNil _ => [] end) (pushed n).

Lemma kids_of_map l : flat_map (fun i => match i with WNode c => [c] | WNil _ => [] end) (map WNode l) = l.
Proof. induction l as [|a r IH]; cbn; [reflexivity|]. rewrite IH. reflexivity. Qed.

Lemma walkable_kids n : walkable n -> pushed n = map WNode (kids_of n) /\ Forall walkable (kids_of n).
Proof.
  intros [k fs pushes kids Hc Hk Hw]. unfold kids_of, pushed. rewrite Hc, Hk, kids_of_map. split; [reflexivity|exact Hw].
Qed.

(** To show a node walkable its children need not be named: it is enough that the kind has a
    case and every pushed field is there (or nil-guarded) and holds walkable nodes. *)
Definition field_ok (fs : list (fname * gfield)) (f : fname) (guarded : bool) : Prop :=
  match assoc_f fs f with
  | Some (GNode (Some c)) => walkable c
  | Some (GNode None) => guarded = true
  | _ => True
  end.

Definition slice_ok (fs : list (fname * gfield)) (f : fname) (P : gnode -> Prop) : Prop :=
  match assoc_f fs f with Some (GSlice cs) => Forall P cs | _ => True end.

Definition push_ok (fs : list (fname * gfield)) (p : push) : Prop :=
  match p with
  | P_Field f g => field_ok fs f g
  | P_SliceRev f | P_SliceFwd f => slice_ok fs f walkable
  | P_SliceRevEach f subs =>
    slice_ok fs f (fun c => match c with GN _ cfs => Forall (fun sg => field_ok cfs (fst sg) (snd sg)) subs end)
  end.

(** a conjunction, so that on a concrete node it computes to one goal per push *)
Fixpoint pushes_ok (fs : list (fname * gfield)) (ps : list push) : Prop :=
  match ps with
  | [] => True
  | [p] => push_ok fs p
  | p :: r => push_ok fs p /\ pushes_ok fs r
  end.

Definition walkable_item (i : witem) : Prop := match i with WNode c => walkable c | WNil _ => False end.

Lemma field_ok_items k fs f g : field_ok fs f g -> Forall walkable_item (push_items_field k fs f g).
Proof.
  unfold field_ok, push_items_field. destruct (assoc_f fs f) as [[| | | |[c|]|]|]; intros H; try constructor.
  - exact H.
  - constructor.
  - rewrite H. constructor.
Qed.

Lemma push_ok_items k fs p : push_ok fs p -> Forall walkable_item (push_items k fs p).
Proof.
  destruct p as [f g|f|f|f subs]; cbn [push_ok push_items]; [apply field_ok_items| | |];
    unfold slice_ok; (destruct (assoc_f fs f) as [[| | | | |cs]|]; [constructor..| |constructor]); intros H.
  - apply Forall_map, Forall_rev. exact H.
  - apply Forall_map. exact H.
  - apply Forall_flat_map, Forall_rev. revert H. apply Forall_impl. intros [ck cfs] H.
    apply Forall_flat_map. revert H. apply Forall_impl. intros sg. apply field_ok_items.
Qed.

Lemma walkable_items items : Forall walkable_item items -> exists kids, items = map WNode kids /\ Forall walkable kids.
Proof.
  induction 1 as [|[c|] r Hc _ (kids & -> & Hk)]; [exists []; split; constructor| |destruct Hc].
  exists (c :: kids). split; [reflexivity|constructor; assumption].
Qed.

Lemma walkable_node k fs pushes : walk_children k = Some pushes -> pushes_ok fs pushes -> walkable (GN k fs).
Proof.
  intros Hc H.
  assert (Hi : Forall walkable_item (flat_map (push_items k fs) pushes)).
  { apply Forall_flat_map. clear Hc. induction pushes as [|p [|q r] IH]; [constructor| |]; constructor.
    - apply push_ok_items. exact H.
    - constructor.
    - apply push_ok_items, H.
    - apply IH, H. }
  destruct (walkable_items _ (Forall_rev Hi)) as (kids & E & Hk). exact (walkable_intro k fs pushes kids Hc E Hk).
Qed.

(** [pre visitor calls forest visits calls']: visiting the forest left to right after [calls]
    visitor calls produces [visits] and ends at [calls']. *)
Inductive pre (visitor : nat -> gnode -> bool) : nat -> list gnode -> list visit -> nat -> Prop :=
| pre_nil c : pre visitor c [] [] c
| pre_cons c n rest v1 c1 v2 c2 :
    pre visitor (S c) (if visitor c n then kids_of n else []) v1 c1 ->
    pre visitor c1 rest v2 c2 ->
    pre visitor c (n :: rest) (VNode n :: v1 ++ v2) c2.

(** what is pushed is strictly smaller than the node *)
Definition isize (i : witem) : nat := match i with WNode c => gsize c | WNil _ => 0 end.

Lemma list_sum_in x l : In x l -> x <= list_sum l.
Proof. unfold list_sum. induction l as [|y r IH]; cbn [fold_right In]; [intros []|]. intros [->|H]; [lia|specialize (IH H); lia]. Qed.

Lemma field_size k fs f v : assoc_f fs f = Some v -> fsize v < gsize (GN k fs).
Proof.
  intros E. cbn [gsize]. apply Nat.lt_succ_r.
  induction fs as [|[g w] r IH]; cbn [assoc_f] in E; [discriminate|]. cbn [map list_sum fold_right].
  destruct (fname_eqb g f); [injection E as ->; lia|specialize (IH E); unfold list_sum in IH; lia].
Qed.

Lemma slice_size k fs f cs c : assoc_f fs f = Some (GSlice cs) -> In c cs -> gsize c < gsize (GN k fs).
Proof.
  intros E Hc. apply (field_size k) in E. cbn [fsize] in E.
  pose proof (list_sum_in (gsize c) (map gsize cs) (in_map gsize cs c Hc)). lia.
Qed.

Lemma push_field_size k fs f g i : In i (push_items_field k fs f g) -> isize i < gsize (GN k fs).
Proof.
  unfold push_items_field. destruct (assoc_f fs f) as [[| | | |o|]|] eqn:E; try (intros []). destruct o as [c|].
  - intros [<-|[]]. exact (field_size k fs f _ E).
  - destruct g; [intros []|]. intros [<-|[]]. unfold nil_item. destruct (field_type _ _) as [[]|]; apply Nat.lt_0_succ.
Qed.

Lemma push_items_size k fs p i : In i (push_items k fs p) -> isize i < gsize (GN k fs).
Proof.
  (* the last three pushes take a slice [cs]: each item is a member of it, or a field of a member *)
  destruct p as [f g|f|f|f subs]; cbn [push_items]; [apply push_field_size| | |];
    (destruct (assoc_f fs f) as [[| | | | |cs]|] eqn:E; try (intros [])); intros Hi.
  - apply in_map_iff in Hi as (c & <- & Hc). apply in_rev in Hc. exact (slice_size k fs f cs c E Hc).
  - apply in_map_iff in Hi as (c & <- & Hc). exact (slice_size k fs f cs c E Hc).
  - apply in_flat_map in Hi as (c & Hc & Hi). apply in_rev in Hc.
    pose proof (slice_size k fs f cs c E Hc) as Hlt. destruct c as [ck cfs].
    apply in_flat_map in Hi as (sg & _ & Hi). apply push_field_size in Hi. lia.
Qed.

Lemma kids_smaller n c : In c (kids_of n) -> gsize c < gsize n.
Proof.
  unfold kids_of, pushed. destruct n as [k fs]. destruct (walk_children k) as [pushes|]; [|intros []].
  intros H. apply in_flat_map in H as (i & Hi & Hc). destruct i as [c'|]; [|destruct Hc].
  destruct Hc as [<-|[]]. apply in_rev in Hi. apply in_flat_map in Hi as (p & _ & Hi).
  apply (push_items_size k fs p (WNode c')). exact Hi.
Qed.

Lemma walk_loop_step fuel visitor calls n rest acc : walkable n ->
  walk_loop (S fuel) visitor calls (WNode n :: rest) acc =
  walk_loop fuel visitor (S calls) (map WNode (if visitor calls n then kids_of n else []) ++ rest) (VNode n :: acc).
Proof.
  intros Hw. destruct (walkable_kids n Hw) as (Hp & _). destruct Hw as [k fs pushes kids Hc _ _].
  unfold pushed in Hp. rewrite Hc in Hp. cbn [walk_loop]. rewrite Hc.
  destruct (visitor calls (GN k fs)); [rewrite Hp|]; reflexivity.
Qed.

(** The children of a node form a forest of their own, not a part of the one at hand: hence
    induction on a bound [b] of the sizes, and inside it on the forest. *)
Lemma forest_walk visitor : forall b forest, (forall n, In n forest -> gsize n <= b) -> Forall walkable forest ->
  forall c, exists vs c', pre visitor c forest vs c' /\
    forall fuel stack acc,
      walk_loop (length vs + fuel) visitor c (map WNode forest ++ stack) acc = walk_loop fuel visitor c' stack (rev vs ++ acc).
Proof.
  induction b as [|b IH]; intros forest Hs Hw.
  - destruct forest as [|n r]; [intros c; exists [], c; split; [constructor|reflexivity]|].
    specialize (Hs n (or_introl eq_refl)). destruct n; cbn in Hs; lia.
  - induction Hw as [|n rest Hn Hrest IHf]; intros c; [exists [], c; split; [constructor|reflexivity]|].
    destruct (IH (if visitor c n then kids_of n else [])) with (c := S c) as (v1 & c1 & H1 & R1).
    { intros m Hm. destruct (visitor c n); [|destruct Hm].
      pose proof (kids_smaller n m Hm). specialize (Hs n (or_introl eq_refl)). lia. }
    { destruct (visitor c n); [apply walkable_kids, Hn|constructor]. }
    destruct (IHf (fun m Hm => Hs m (or_intror Hm)) c1) as (v2 & c2 & H2 & R2).
    exists (VNode n :: v1 ++ v2), c2. split; [econstructor; eassumption|]. intros fuel stack acc.
    cbn [length map app Nat.add]. rewrite walk_loop_step by exact Hn.
    rewrite app_length, <- Nat.add_assoc, R1, R2.
    cbn [rev]. rewrite rev_app_distr, <- !app_assoc. reflexivity.
Qed.

(** On a walkable tree the machine returns normally (no panic, no nil visit) with exactly the
    pre-order visits, given enough fuel. *)
Theorem walk_is_preorder visitor n : walkable n ->
  exists vs c', pre visitor 0 [n] vs c' /\
    forall fuel, length vs < fuel -> walk_loop fuel visitor 0 [WNode n] [] = WOk vs.
Proof.
  intros Hw. destruct (forest_walk visitor (gsize n) [n]) with (c := 0) as (vs & c' & Hpre & Hrun).
  { intros m [<-|[]]. apply le_n. }
  { repeat constructor. exact Hw. }
  exists vs, c'. split; [exact Hpre|]. intros fuel Hf.
  specialize (Hrun (S (fuel - S (length vs))) [] []). cbn [map app] in Hrun.
  replace fuel with (length vs + S (fuel - S (length vs))) by lia.
  rewrite Hrun. cbn [walk_loop]. rewrite app_nil_r, rev_involutive. reflexivity.
Qed.

Lemma pre_no_nil visitor c forest vs c' : pre visitor c forest vs c' -> ~ In VNil vs.
Proof.
  induction 1 as [c|c n rest v1 c1 v2 c2 H1 IH1 H2 IH2]; [intros []|].
  intros [H|H]; [discriminate|]. apply in_app_or in H as [H|H]; auto.
Qed.

Lemma pre_prune visitor c n rest vs c' : visitor c n = false -> pre visitor c (n :: rest) vs c' ->
  exists v2, vs = VNode n :: v2 /\ pre visitor (S c) rest v2 c'.
Proof.
  intros Hv H. inversion H as [|? ? ? v1 c1 v2 c2 H1 H2]; subst. rewrite Hv in H1.
  inversion H1; subst. exists v2. split; [reflexivity|exact H2].
Qed.

Lemma pre_descend visitor c n rest vs c' : visitor c n = true -> pre visitor c (n :: rest) vs c' ->
  exists v1 c1 v2, vs = VNode n :: v1 ++ v2 /\ pre visitor (S c) (kids_of n) v1 c1 /\ pre visitor c1 rest v2 c'.
Proof.
  intros Hv H. inversion H as [|? ? ? v1 c1 v2 c2 H1 H2]; subst. rewrite Hv in H1.
  exists v1, c1, v2. auto.
Qed.

Lemma pre_calls visitor c forest vs c' : pre visitor c forest vs c' -> c' = c + length vs.
Proof.
  induction 1 as [c|c n rest v1 c1 v2 c2 H1 IH1 H2 IH2]; [cbn; lia|].
  cbn [length]. rewrite app_length. lia.
Qed.
