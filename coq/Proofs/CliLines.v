(** * From the bytes of a script to the lines the loop sees (property C16, Props/C16.v).
    [events_of] models bufio.Scanner with ScanLines and its 64 KiB token limit.  When no line
    reaches the limit the events are the script's lines (trailing CR removed), covering it byte for
    byte, and the run is the one-shot specification on that text; otherwise the run fails. *)
From PQL Require Import Model.Cli Model.Show Spec.CliSpec Proofs.SplitFacts Proofs.CliFacts Proofs.CliSpecFacts.
From Coq Require Import Lia.
Local Open Scope list_scope.
Local Open Scope nat_scope.
Local Notation length := List.length (only parsing).

Fixpoint split_lines (fuel : nat) (s : str) : list str :=
  match fuel with
  | O => []
  | S f =>
    match s with
    | [] => []
    | _ => let '(line, rest) := take_line s in
           line :: match rest with Some r => split_lines f r | None => [] end
    end
  end.

Lemma take_line_spec s : match take_line s with
                         | (a, Some r) => s = a ++ 10%N :: r
                         | (a, None) => s = a /\ forallb (fun c => negb (c =? 10)%N) a = true
                         end.
Proof.
  induction s as [|c r IH]; cbn [take_line]; [split; reflexivity|].
  destruct (c =? 10)%N eqn:E; [apply N.eqb_eq in E; subst; reflexivity|].
  destruct (take_line r) as [a [b|]]; cbn [app]; [rewrite IH; reflexivity|].
  destruct IH as [-> H]. split; [reflexivity|]. cbn [forallb]. rewrite E, H. reflexivity.
Qed.

Lemma take_line_length s a b : take_line s = (a, Some b) -> length b < length s.
Proof. intros H. pose proof (take_line_spec s) as Sp. rewrite H in Sp. subst s. rewrite app_length. cbn [length]. lia. Qed.

(** joined with newlines the lines give the script back, plus a newline if the last was unterminated *)
Theorem lines_cover_script : forall f s, length s < f ->
  exists tail, (tail = [] \/ tail = [10%N]) /\ text_of (split_lines f s) = s ++ tail.
Proof.
  induction f as [|f IH]; intros s Hf; [lia|]. destruct s as [|c r]; [exists []; split; [left|]; reflexivity|].
  cbn [split_lines]. pose proof (take_line_spec (c :: r)) as Sp. destruct (take_line (c :: r)) as [a [b|]] eqn:E.
  - destruct (IH b ltac:(pose proof (take_line_length _ _ _ E); cbn [length] in *; lia)) as (tail & Ht & Hx).
    exists tail. split; [exact Ht|]. unfold text_of in *. cbn [map concat]. rewrite Hx, Sp, <- !app_assoc. reflexivity.
  - destruct Sp as [-> _]. exists [10%N]. split; [right; reflexivity|]. unfold text_of. cbn [map concat]. rewrite app_nil_r. reflexivity.
Qed.

Definition short (l : str) : bool := negb (65536 <=? N.of_nat (length l))%N.

Lemma events_short : forall f s, forallb short (split_lines f s) = true ->
  events_of f s = map Line (map strip_cr (split_lines f s)).
Proof.
  induction f as [|f IH]; intros s H; [reflexivity|]. destruct s as [|c r]; [reflexivity|].
  cbn [events_of split_lines] in *. destruct (take_line (c :: r)) as [a b]. cbn [forallb] in H. apply andb_prop in H as [Ha Hr].
  unfold short in Ha. destruct (65536 <=? N.of_nat (length a))%N; [discriminate|]. cbn [map]. f_equal.
  destruct b as [b|]; [apply IH; exact Hr|reflexivity].
Qed.

Lemma events_long : forall f s, forallb short (split_lines f s) = false -> In ReadError (events_of f s).
Proof.
  induction f as [|f IH]; intros s H; [discriminate|]. destruct s as [|c r]; [discriminate|].
  cbn [events_of split_lines] in *. destruct (take_line (c :: r)) as [a b]. cbn [forallb] in H.
  unfold short in H at 1. destruct (65536 <=? N.of_nat (length a))%N; [left; reflexivity|]. cbn [negb andb] in H.
  right. destruct b as [b|]; [apply IH; exact H|discriminate].
Qed.

Theorem script_is_expected s : forallb short (split_lines (S (length s)) s) = true ->
  run (events_of (S (length s)) s) = expected (text_of (map strip_cr (split_lines (S (length s)) s))).
Proof. intros H. rewrite (events_short _ _ H). apply run_is_expected. Qed.

Theorem long_line_fails s : forallb short (split_lines (S (length s)) s) = false ->
  o_fail (run (events_of (S (length s)) s)) = true.
Proof. intros H. unfold run. apply read_error_fails. apply events_long. exact H. Qed.

Lemma strip_cr_id l : forallb (fun c => negb (c =? 13)%N) l = true -> strip_cr l = l.
Proof.
  induction l as [|c r IH]; [reflexivity|]. cbn [forallb]. intros H. apply andb_prop in H as [Hc Hr].
  cbn [strip_cr]. destruct r as [|d r']; [destruct (c =? 13)%N; [discriminate|reflexivity]|]. rewrite (IH Hr). reflexivity.
Qed.

Lemma split_lines_no_cr : forall f s, forallb (fun c => negb (c =? 13)%N) s = true ->
  Forall (fun l => forallb (fun c => negb (c =? 13)%N) l = true) (split_lines f s).
Proof.
  induction f as [|f IH]; intros s H; [constructor|]. destruct s as [|c r]; [constructor|]. cbn [split_lines].
  pose proof (take_line_spec (c :: r)) as Sp. destruct (take_line (c :: r)) as [a [b|]].
  - rewrite Sp, forallb_app in H. apply andb_prop in H as [Ha Hb]. cbn [forallb] in Hb. apply andb_prop in Hb as [_ Hb].
    constructor; [exact Ha|apply IH; exact Hb].
  - destruct Sp as [<- _]. constructor; [exact H|constructor].
Qed.

Lemma map_strip_cr_id ls : Forall (fun l => forallb (fun c => negb (c =? 13)%N) l = true) ls -> map strip_cr ls = ls.
Proof. induction 1 as [|l r Hl Hr IH]; [reflexivity|]. cbn [map]. rewrite (strip_cr_id l Hl), IH. reflexivity. Qed.

(** without carriage returns the text compiled is the script itself *)
Theorem script_without_cr s : forallb (fun c => negb (c =? 13)%N) s = true -> forallb short (split_lines (S (length s)) s) = true ->
  exists tail, (tail = [] \/ tail = [10%N]) /\ run (events_of (S (length s)) s) = expected (s ++ tail).
Proof.
  intros Hcr Hs. destruct (lines_cover_script (S (length s)) s (Nat.lt_succ_diag_r _)) as (tail & Ht & Hx).
  exists tail. split; [exact Ht|]. rewrite (script_is_expected s Hs).
  rewrite (map_strip_cr_id _ (split_lines_no_cr (S (length s)) s Hcr)), Hx. reflexivity.
Qed.

(** compiling the last piece as an unterminated query is the same as handling it as a terminated
    statement and finding nothing after it *)
Theorem last_query_either_way st p : is_let_piece p = false -> scan p <> [] ->
  finish (set_pending st p) false = finish (set_pending (do_piece st p) []) false.
Proof.
  intros Hl Hs. unfold finish, set_pending, do_piece. cbn [pending prelude out failed nlogged]. rewrite Hl.
  destruct (scan p) as [|t r] eqn:E; [congruence|].
  destruct (compile_ok (prelude st ++ p)) as [sql|]; cbn [pending prelude out failed nlogged]; reflexivity.
Qed.

(** when the appended semicolon is a token of its own (not swallowed by an unterminated comment,
    string or quoted name), a final query gives the same output and exit status with and without it *)
Theorem trailing_semicolon s :
  split_statements (s ++ [59%N]) = split_statements s ++ [[]] ->
  is_let_piece (last (split_statements s) []) = false -> scan (last (split_statements s) []) <> [] ->
  expected (s ++ [59%N]) = expected s.
Proof.
  intros Hsp Hl Hs. unfold expected, state_of_text. rewrite Hsp, removelast_last, last_last.
  pose proof (split_at_semis_nonempty s 0 (scan s)) as Hne. fold (split_statements s) in Hne.
  rewrite (app_removelast_last [] Hne) at 1. rewrite fold_left_app. cbn [fold_left].
  symmetry. apply last_query_either_way; assumption.
Qed.
