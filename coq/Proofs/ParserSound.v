(** * What the expression parser returns (C07, C08, C10, C12): one invariant [Out], proved in one walk
    over the productions. *)
From PQL Require Import Spec.Grammar Proofs.ParserFacts Proofs.ParserGram.
From Coq Require Import Lia ZArith.
Local Open Scope list_scope.
Local Open Scope nat_scope.

Lemma kind_code_inj a b : kind_code a = kind_code b -> a = b.
Proof. destruct a, b; cbn; intros H; try reflexivity; discriminate H. Qed.

Lemma kind_eqb_eq a b : kind_eqb a b = true <-> a = b.
Proof. unfold kind_eqb. rewrite Z.eqb_eq. split; [apply kind_code_inj|intros ->; reflexivity]. Qed.

Lemma is_kind_eq k t : is_kind k t = true -> tkind t = k.
Proof. unfold is_kind. apply kind_eqb_eq. Qed.

Lemma is_kind_neq k t : is_kind k t = false -> tkind t <> k.
Proof. unfold is_kind. intros H E. apply kind_eqb_eq in E. congruence. Qed.

Lemma is_kind_tok k t : is_kind k t = true -> is_tok k (tok_span t) t.
Proof. intros H. split; [apply is_kind_eq; exact H|reflexivity]. Qed.

Lemma opaque_nil e : opaque e = [] -> e = [].
Proof. destruct e; [auto|discriminate]. Qed.

Lemma end_split_nil ts : end_split ts = [] -> ts = [].
Proof. destruct ts; [auto|discriminate]. Qed.

Lemma is_nf_opaque e : is_nf (opaque e) = false.
Proof. induction e as [|x r IH]; [reflexivity|]. cbn. exact IH. Qed.
Lemma is_nf_err_at p : is_nf (err_at p) = false.
Proof. reflexivity. Qed.

Lemma no_err_true e : no_err e = true -> e = [].
Proof. destruct e; [auto|discriminate]. Qed.
Lemma no_err_negb e : negb (no_err e) = false -> e = [].
Proof. intros H. apply no_err_true, Bool.negb_false_iff, H. Qed.
Lemma no_err_false e : negb (no_err e) = true -> e <> [].
Proof. destruct e; [discriminate|discriminate]. Qed.

Lemma when_ok_some {A} e (v : option A) x : when_ok e v = Some x -> e = [] /\ v = Some x.
Proof. unfold when_ok. destruct e; cbn; [auto|discriminate]. Qed.

Lemma opt_map2_some {A B C} (f : A -> B -> C) a b c : opt_map2 f a b = Some c -> exists x y, a = Some x /\ b = Some y /\ c = f x y.
Proof. destruct a, b; cbn; try discriminate. intros [= <-]. eauto. Qed.

Lemma option_map_some {A B} (f : A -> B) a c : option_map f a = Some c -> exists x, a = Some x /\ c = f x.
Proof. destruct a; cbn; [intros [= <-]; eauto|discriminate]. Qed.

(** Three properties [Q] are asked of every error (no fuel error, no "not found", position from the
    input); closure under the parser's list operations is stated once. *)
Definition no_fuel (x : perr) : Prop := efuel x = false.
Definition no_nf (x : perr) : Prop := enf x = false.

(** [Q] survives [opaque], which only clears the not-found flag *)
Definition keeps (Q : perr -> Prop) : Prop := forall x, Q x -> Q (mkErr (epos x) false (efuel x)).

Lemma errs_app (Q : perr -> Prop) a b : Forall Q a -> Forall Q b -> Forall Q (a ++ b).
Proof. intros Ha Hb. apply Forall_app. split; assumption. Qed.
Lemma errs_opaque (Q : perr -> Prop) e : keeps Q -> Forall Q e -> Forall Q (opaque e).
Proof. intros HQ H. unfold opaque. induction H; cbn [map]; constructor; auto. Qed.
Lemma errs_at (Q : perr -> Prop) p : Q (mkErr (Some p) false false) -> Forall Q (err_at p).
Proof. intros H. constructor; [exact H|constructor]. Qed.
Lemma errs_nf_at (Q : perr -> Prop) p : Q (mkErr (Some p) true false) -> Forall Q (nf_at p).
Proof. intros H. constructor; [exact H|constructor]. Qed.
Lemma errs_nopos (Q : perr -> Prop) : Q (mkErr None false false) -> Forall Q err_nopos.
Proof. intros H. constructor; [exact H|constructor]. Qed.
Lemma errs_fuel (Q : perr -> Prop) : Q (mkErr None false true) -> Forall Q fuel_err.
Proof. intros H. constructor; [exact H|constructor]. Qed.
Lemma errs_end_split (Q : perr -> Prop) ts : Forall (fun t => Q (mkErr (Some (tstart t)) false false)) ts -> Forall Q (end_split ts).
Proof. intros H. destruct H; [constructor|apply errs_at; assumption]. Qed.

Lemma existsb_false {A} (g : A -> bool) l : existsb g l = false <-> Forall (fun x => g x = false) l.
Proof.
  induction l as [|a l IH]; cbn [existsb]; [split; [constructor|reflexivity]|].
  rewrite Bool.orb_false_iff, IH, Forall_cons_iff. reflexivity.
Qed.

Lemma no_fuel_mk p nf : no_fuel (mkErr p nf false). Proof. reflexivity. Qed.
Lemma no_nf_mk p fu : no_nf (mkErr p false fu). Proof. reflexivity. Qed.
Lemma keeps_no_fuel : keeps no_fuel. Proof. intros x H. exact H. Qed.
Lemma no_nf_opaque e : Forall no_nf (opaque e).
Proof. unfold opaque. induction e; cbn [map]; constructor; [reflexivity|assumption]. Qed.
Lemma no_fuel_end_split ts : Forall no_fuel (end_split ts).
Proof. destruct ts; repeat constructor. Qed.
Lemma no_nf_end_split ts : Forall no_nf (end_split ts).
Proof. destruct ts; repeat constructor. Qed.
Lemma is_nf_false e : is_nf e = false -> Forall no_nf e.
Proof. apply existsb_false. Qed.
Lemma no_nf_absurd e (G : Prop) : Forall no_nf e -> is_nf e = true -> G.
Proof. intros H. apply existsb_false in H. unfold is_nf. rewrite H. discriminate. Qed.

Section OutcomeDef.
Variable srclen : nat.

Definition pos_from (ts : list token) (x : perr) : Prop :=
  match epos x with None => True | Some p => p = srclen \/ exists t, In t ts /\ p = tstart t end.

Definition within (ts l : list token) : Prop := Forall (fun t => In t ts) l.

Lemma within_refl ts : within ts ts.
Proof. apply Forall_forall. auto. Qed.

Lemma pos_from_none ts nf fu : pos_from ts (mkErr None nf fu). Proof. exact I. Qed.
Lemma pos_from_src ts nf fu : pos_from ts (mkErr (Some srclen) nf fu). Proof. left. reflexivity. Qed.
Lemma pos_from_tok ts t nf fu : In t ts -> pos_from ts (mkErr (Some (tstart t)) nf fu).
Proof. intros H. right. exists t. split; [exact H|reflexivity]. Qed.
Lemma keeps_pos_from ts : keeps (pos_from ts). Proof. intros x H. exact H. Qed.
Lemma pos_from_end_split ts l : within ts l -> Forall (pos_from ts) (end_split l).
Proof. intros H. apply errs_end_split. revert H. apply Forall_impl. intros t. apply pos_from_tok. Qed.

(** "not found" is said only with nothing consumed, never, or under no rule *)
Inductive nf_rule := Restores | NeverNf | AnyNf.
Definition nf_clause (k : nf_rule) (ts rest : list token) (e : errs) : Prop :=
  match k with Restores => is_nf e = true -> rest = ts | NeverNf => Forall no_nf e | AnyNf => True end.

(** The outcome [(_, rest, e)] of a production run on [ts].  Tokens and positions are traced to [ts0],
    any list with the tokens of [ts], since a caller runs productions on parts of its input. *)
Record Out (k : nf_rule) (enough : Prop) (ts0 ts rest : list token) (e : errs) (ok : Prop) : Prop := {
  out_toks : within ts0 rest;            (* the tokens left were given *)
  out_len : length rest <= length ts;    (* and are no more *)
  out_pos : Forall (pos_from ts0) e;
  out_fuel : enough -> Forall no_fuel e; (* [enough]: the fuel suffices for [ts] *)
  out_nf : nf_clause k ts rest e;
  out_ok : e = [] -> ok }.               (* what an outcome without errors stands for *)

(** [ok] for a production that returns a tree.  [W] says the prefix consumed is the tree's token
    sequence (Spec/Flatten.v) and the tree is grammatical (Spec/Grammar.v). *)
Definition reads {A} (W : A -> list token -> Prop) (ts : list token) (x : option A) (rest : list token) : Prop :=
  forall a, x = Some a -> exists used, ts = used ++ rest /\ W a used.

(** Fuel is enough at four units per token plus [c], the number of call levels [p] may go down before
    it has to consume a token (1 for [p_inner] up to 6 for a statement). *)
Definition OutOK {A} (W : A -> list token -> Prop) (k : nf_rule) (c f : nat) (p : list token -> option A * list token * errs) : Prop :=
  forall ts0 ts x rest e, within ts0 ts -> p ts = (x, rest, e) -> Out k (4 * length ts + c <= f) ts0 ts rest e (reads W ts x rest).

(** the last field alone *)
Definition Reads {A} (W : A -> list token -> Prop) (p : list token -> option A * list token * errs) : Prop :=
  forall ts a rest, p ts = (Some a, rest, []) -> exists used, ts = used ++ rest /\ W a used.

Lemma ok_reads {A} (W : A -> list token -> Prop) k c f p : OutOK W k c f p -> Reads W p.
Proof. intros H ts a rest E. exact (out_ok _ _ _ _ _ _ _ (H ts ts _ _ _ (within_refl _) E) eq_refl a eq_refl). Qed.

Definition tree_of {A} (P : A -> list token -> Prop) (g : A -> bool) (a : A) (u : list token) : Prop := P a u /\ g a = true.

Lemma reads_all {A} (W : A -> list token -> Prop) p ts a : Reads W p -> p ts = (Some a, [], []) -> W a ts.
Proof. intros H E. destruct (H _ _ _ E) as (u & Hu & Hw). rewrite app_nil_r in Hu. subst u. exact Hw. Qed.

Lemma split_parts ts k l : within ts l ->
  within ts (fst (split k l)) /\ within ts (snd (split k l)) /\ length (fst (split k l)) + length (snd (split k l)) = length l.
Proof.
  intros H. rewrite <- app_length. rewrite <- (split_partition k l) in H at 1. apply Forall_app in H as [H1 H2].
  rewrite split_partition. auto.
Qed.
Lemma split_semi_parts ts l : within ts l ->
  within ts (fst (split_semi l)) /\ within ts (snd (split_semi l)) /\ length (fst (split_semi l)) + length (snd (split_semi l)) = length l.
Proof.
  intros H. rewrite <- app_length. rewrite <- (split_semi_app l) in H at 1. apply Forall_app in H as [H1 H2].
  rewrite split_semi_app. auto.
Qed.
End OutcomeDef.

Definition failed (e : errs) : Prop := e <> [].
Lemma fails e (ok : Prop) : failed e -> e = [] -> ok.
Proof. intros H E. contradiction. Qed.
Lemma failed_nf e : is_nf e = true -> failed e.
Proof. intros H ->. discriminate H. Qed.
Lemma failed_err e : no_err e = false -> failed e.
Proof. intros H ->. discriminate H. Qed.
Lemma failed_negb e : negb (no_err e) = true -> failed e.
Proof. exact (no_err_false e). Qed.
Lemma failed_app_l a b : failed a -> failed (a ++ b).
Proof. intros H E. apply app_eq_nil in E as [E _]. contradiction. Qed.

Create HintDb errs.
#[global] Hint Resolve errs_app errs_opaque errs_at errs_nf_at errs_nopos errs_fuel no_fuel_mk no_nf_mk keeps_no_fuel
  no_nf_opaque no_fuel_end_split no_nf_end_split is_nf_false pos_from_none pos_from_src pos_from_tok keeps_pos_from pos_from_end_split
  failed_nf failed_err failed_negb failed_app_l : errs.
#[global] Hint Constructors Forall : errs.
#[global] Hint Extern 1 (_ <= _) => lia : errs.
#[global] Hint Extern 1 (_ < _) => lia : errs.
#[global] Hint Extern 1 (failed _) => discriminate : errs.

(** The proofs follow each production branch by branch, with [Hw : within ts0 ts] in the context.
    - [sub H E] turns the equation [E : q ts' = (x, rest, e)] of a call into the fields of its outcome,
      by the invariant [H] of [q]; [E] then names the last field, [e = [] -> ok].
    - [splt k l E] names the two parts of [split k l], with both [within] and their lengths.
    - [out] proves an [Out] at a return point: five fields by the hints of [errs] and [lia]; the sixth
      is closed when there is no tree or an error shows, and left as the goal otherwise.
    - [leaf] is [out] for a goal [(x', rest', e') = (x, rest, e) -> Out ...]. *)
Ltac within_heads := unfold within in *; repeat match goal with H : Forall _ (_ :: _) |- _ => apply Forall_cons_iff in H; destruct H end.
Ltac sub H E := eapply H in E; [|solve [within_heads; eauto with errs]]; destruct E as [? ? ? ? ? E]; unfold nf_clause in *.
Ltac splt k l E :=
  let H := fresh in eassert (H : within _ l) by (within_heads; eauto with errs);
  destruct (split_parts _ k l H) as (? & ? & ?); clear H; destruct (split k l) as [? ?] eqn:E; cbn [fst snd] in *.
Ltac out :=
  within_heads; constructor; cbn [length] in *;
  [ solve [unfold within; auto with errs]
  | lia
  | solve [auto 10 with errs]
  | intros ?; first [solve [auto 10 with errs] | exfalso; lia]
  | unfold nf_clause; first [exact I | assumption | intros _; reflexivity | solve [auto 10 with errs] | apply no_nf_absurd; solve [auto 10 with errs]]
  | try solve [intros _; exact I | intros _ ? [=] | refine (fails _ _ _); auto 6 with errs] ].
Ltac leaf := let E := fresh in intros E; injection E; clear E; intros; subst; out.

Lemma mk_ident_tok t : (is_kind KIdentifier t || is_kind KQuotedIdentifier t) = true -> ident_tok (mk_ident t) t.
Proof.
  intros H. unfold ident_tok, mk_ident. cbn [iquoted iname ispan].
  destruct (is_kind KQuotedIdentifier t) eqn:E.
  - apply is_kind_eq in E. auto.
  - rewrite Bool.orb_false_r in H. apply is_kind_eq in H. auto.
Qed.

Section Exprs.
Variable srclen : nat.

Notation pexpr := (p_expr srclen).
Notation punary := (p_unary srclen).
Notation pprimary := (p_primary srclen).
Notation pinner := (p_inner srclen).
Notation plist := (p_expr_list srclen).
Notation ptail := (p_expr_list_tail srclen).
Notation ptrail := (p_trail srclen).
Notation phigher := (p_higher srclen).

(** unfolding equations (the mutual block does not refold under [cbn]) *)
Lemma p_expr_S f (ts : list token) :
  p_expr srclen (S f) ts =
    let '(x, r1, e1) := p_unary srclen f ts in
    if is_nf e1 then (x, r1, e1)
    else
      let '(x', r2, e2) := p_trail srclen f x 0%Z r1 in
      (when_ok (e1 ++ e2) x', r2, e1 ++ e2).
Proof. reflexivity. Qed.

Lemma p_unary_S f (ts : list token) :
  p_unary srclen (S f) ts =
    match ts with
    | [] => (None, [], nf_at srclen)
    | t :: r =>
      if is_kind KPlus t || is_kind KMinus t then
        let '(x, r1, e) := p_primary srclen f r in
        (option_map (EUnary (tok_span t) (tkind t)) (when_ok e x), r1, opaque e)
      else p_primary srclen f ts
    end.
Proof. reflexivity. Qed.

Lemma p_primary_S f (ts : list token) :
  p_primary srclen (S f) ts =
    let '(x, r1, e) := p_inner srclen f ts in
    if negb (no_err e) then (x, r1, e)
    else
      match r1 with
      | t :: r2 =>
        if is_kind KLBracket t then
          let '(sub, rest) := split KRBracket r2 in
          let '(i, subrest, ei) := p_expr srclen f sub in
          let e1 := opaque ei ++ end_split subrest in
          match rest with
          | c :: rest' =>
            if is_kind KRBracket c then
              (when_ok e1 (opt_map2 (fun x i => EIndex x (tok_span t) i (tok_span c)) x i), rest', e1)
            else (None, rest', e1 ++ err_at (tstart c))
          | [] => (None, [], e1 ++ err_at srclen)
          end
        else (x, r1, [])
      | [] => (x, [], [])
      end.
Proof. reflexivity. Qed.

Lemma p_inner_S f (ts : list token) :
  p_inner srclen (S f) ts =
    match ts with
    | [] => (None, [], nf_at srclen)
    | t :: r =>
      if is_kind KNumber t || is_kind KString t then
        (Some (ELit (tok_span t) (tkind t) (tvalue t)), r, [])
      else if is_kind KIdentifier t then
        match p_qualified srclen ts with
        | (Some [i], r1, _) =>
          match r1 with
          | lp :: r2 =>
            if is_kind KLParen lp then
              let '(sub, rest) := split KRParen r2 in
              let '(args, subrest, ea) := p_expr_list srclen f sub in
              let '(args, subrest, ea) :=
                if is_nf ea then (Some [], subrest, [])
                else if no_err ea then
                  match subrest with
                  | c :: sr => if is_kind KComma c then (args, sr, ea) else (args, subrest, ea)
                  | [] => (args, subrest, ea)
                  end
                else (args, subrest, ea) in
              let e1 := ea ++ end_split subrest in
              match rest with
              | c :: rest' =>
                if is_kind KRParen c then
                  (when_ok e1 (option_map (fun a => ECall i (tok_span lp) a (tok_span c)) args), rest', e1)
                else (None, rest, e1 ++ err_at (tstart c))
              | [] => (None, [], e1 ++ err_at srclen)
              end
            else (Some (EQual [i]), r1, [])
          | [] => (Some (EQual [i]), [], [])
          end
        | (ps, r1, e) => (option_map EQual ps, r1, e)
        end
      else if is_kind KQuotedIdentifier t then
        let '(ps, r1, e) := p_qualified srclen ts in (option_map EQual ps, r1, e)
      else if is_kind KLParen t then
        let '(sub, rest) := split KRParen r in
        let '(x, subrest, ex) := p_expr srclen f sub in
        let e1 := opaque ex ++ end_split subrest in
        match rest with
        | c :: rest' =>
          if is_kind KRParen c then
            (when_ok e1 (option_map (fun x => EParen (tok_span t) x (tok_span c)) x), rest', e1)
          else (None, rest', e1 ++ err_at (tstart c))
        | [] => (None, [], e1 ++ err_at srclen)
        end
      else (None, ts, nf_at (tstart t))
    end.
Proof. reflexivity. Qed.

Lemma p_expr_list_S f (ts : list token) :
  p_expr_list srclen (S f) ts =
    let '(x, r1, e1) := p_expr srclen f ts in
    if negb (no_err e1) then (None, r1, e1)
    else
      let '(xs, r2, e2) := p_expr_list_tail srclen f r1 in
      (when_ok e2 (opt_map2 cons x xs), r2, e2).
Proof. reflexivity. Qed.

Lemma p_expr_list_tail_S f (ts : list token) :
  p_expr_list_tail srclen (S f) ts =
    match ts with
    | c :: r =>
      if is_kind KComma c then
        let '(x, r1, e1) := p_expr srclen f r in
        if is_nf e1 then (Some [], ts, [])
        else if negb (no_err e1) then (None, r1, opaque e1)
        else
          let '(xs, r2, e2) := p_expr_list_tail srclen f r1 in
          (when_ok e2 (opt_map2 cons x xs), r2, e2)
      else (Some [], ts, [])
    | [] => (Some [], [], [])
    end.
Proof. reflexivity. Qed.

Lemma p_trail_S f (x : option expr) (minp : Z) (ts : list token) :
  p_trail srclen (S f) x minp ts =
    match ts with
    | [] => (x, [], [])
    | op1 :: r =>
      let prec1 := op_prec (tkind op1) in
      if (prec1 <? 0)%Z || (prec1 <? minp)%Z then (x, ts, [])
      else if is_kind KIn op1 then
        match r with
        | lp :: r1 =>
          if is_kind KLParen lp then
            let '(sub, rest) := split KRParen r1 in
            let '(vals, subrest, ev) := p_expr_list srclen f sub in
            let e1 := opaque ev ++ end_split subrest in
            match rest with
            | c :: rest' =>
              if is_kind KRParen c then
                let x' := when_ok e1 (opt_map2 (fun x v => EIn x (tok_span op1) (tok_span lp) v (tok_span c)) x vals) in
                let '(x'', r2, e2) := p_trail srclen f x' minp rest' in
                (when_ok (e1 ++ e2) x'', r2, e1 ++ e2)
              else (None, rest', e1 ++ err_at (tstart lp))
            | [] => (None, [], e1 ++ err_at (tstart lp))
            end
          else (None, r1, err_at (tstart lp))
        | [] => (None, [], err_at srclen)
        end
      else
        let '(y, r1, ey) := p_unary srclen f r in
        let e1 := opaque ey in
        let '(y', r2, e2) := p_higher srclen f y prec1 r1 in
        let x' := when_ok (e1 ++ e2) (opt_map2 (fun x y => EBin x (tok_span op1) (tkind op1) y) x y') in
        let '(x'', r3, e3) := p_trail srclen f x' minp r2 in
        (when_ok (e1 ++ e2 ++ e3) x'', r3, e1 ++ e2 ++ e3)
    end.
Proof. reflexivity. Qed.

Lemma p_higher_S f (y : option expr) (prec1 : Z) (ts : list token) :
  p_higher srclen (S f) y prec1 ts =
    match ts with
    | [] => (y, [], [])
    | op2 :: _ =>
      let prec2 := op_prec (tkind op2) in
      if (prec2 <? 0)%Z || (prec2 <=? prec1)%Z then (y, ts, [])
      else
        let '(y', r1, e1) := p_trail srclen f y (prec1 + 1)%Z ts in
        let '(y'', r2, e2) := p_higher srclen f y' prec1 r1 in
        (when_ok (opaque e1 ++ e2) y'', r2, opaque e1 ++ e2)
    end.
Proof. reflexivity. Qed.

Lemma p_ident_out ts0 ts x rest e : within ts0 ts -> p_ident srclen ts = (x, rest, e) -> Out srclen Restores True ts0 ts rest e True.
Proof. intros Hw. unfold p_ident. destruct ts as [|t r]; [leaf|]. destruct (_ || _); leaf. Qed.

Lemma p_qual_tail_out : forall n ts0 ts ps rest e, length ts <= n -> within ts0 ts -> p_qual_tail srclen ts = (ps, rest, e) ->
  Out srclen NeverNf True ts0 ts rest e (exists used, ts = used ++ rest /\ forall i t, ident_tok i t -> toks_qual (i :: ps) (t :: used)).
Proof.
  assert (Hnone : forall ts : list token, exists used, ts = used ++ ts /\ forall i t, ident_tok i t -> toks_qual [i] (t :: used)).
  { intros ts. exists []. split; [reflexivity|]. intros i t Hi. constructor. exact Hi. }
  induction n as [|n IH]; intros ts0 ts ps rest e Hn Hw.
  - destruct ts; [|cbn in Hn; lia]. cbn [p_qual_tail]. leaf. intros _. apply Hnone.
  - destruct ts as [|d r]; cbn [p_qual_tail]; [leaf; intros _; apply Hnone|].
    destruct (is_kind KDot d) eqn:Ed; [|leaf; intros _; apply Hnone].
    destruct r as [|t r']; [leaf|].
    destruct (is_kind KIdentifier t || is_kind KQuotedIdentifier t) eqn:Et; [|leaf].
    destruct (p_qual_tail srclen r') as [[a b] c] eqn:E. sub (fun ts0 ps rest e => IH ts0 r' ps rest e ltac:(cbn in Hn; lia)) E. leaf.
    intros ->. destruct (E eq_refl) as (used & -> & Hq). exists (d :: t :: used). split; [reflexivity|]. intros i t0 Hi.
    constructor; [exact Hi|apply is_kind_eq; exact Ed|]. apply Hq. apply mk_ident_tok. exact Et.
Qed.

Lemma p_qualified_out ts0 ts x rest e : within ts0 ts -> p_qualified srclen ts = (x, rest, e) -> Out srclen Restores True ts0 ts rest e True.
Proof.
  intros Hw. unfold p_qualified. destruct (p_ident srclen ts) as [[[i|] r] ei] eqn:Ei; sub p_ident_out Ei; [|leaf].
  destruct (p_qual_tail srclen r) as [[ps rest'] e'] eqn:Et. sub (fun ts0 ps rest e => p_qual_tail_out (length r) ts0 r ps rest e (le_n _)) Et. leaf.
Qed.

Lemma p_ident_sound ts i rest e : p_ident srclen ts = (Some i, rest, e) ->
  exists t, ts = t :: rest /\ ident_tok i t /\ e = [].
Proof.
  unfold p_ident. destruct ts as [|t r]; [discriminate|].
  destruct (is_kind KIdentifier t || is_kind KQuotedIdentifier t) eqn:E; [|discriminate].
  intros [= <- <- <-]. exists t. repeat split. apply mk_ident_tok. exact E.
Qed.

Lemma p_qualified_sound ts ps rest e : p_qualified srclen ts = (Some ps, rest, e) ->
  exists used, ts = used ++ rest /\ toks_qual ps used /\ e = [].
Proof.
  unfold p_qualified. destruct (p_ident srclen ts) as [[[i|] r] ei] eqn:Ei; [|discriminate].
  apply p_ident_sound in Ei as (t & -> & Hi & ->).
  destruct (p_qual_tail srclen r) as [[ps' rest'] e'] eqn:Et.
  destruct (no_err e') eqn:En; [|discriminate]. apply no_err_true in En. subst e'.
  intros [= <- <- <-]. destruct (out_ok _ _ _ _ _ _ _ _ (p_qual_tail_out _ r r _ _ _ (le_n _) (within_refl _) Et) eq_refl) as (used & -> & Hq).
  exists (t :: used). repeat split. apply Hq. exact Hi.
Qed.

Lemma qual_single i used : toks_qual [i] used -> exists t, used = [t] /\ ident_tok i t.
Proof. intros H. inversion H as [i0 t Hi|i0 t d r tr Hi Hd Hr]; subst; [eauto|inversion Hr]. Qed.

Definition snd_of {A B C} (x : A * B * C) : C := snd x.

Lemma is_nf_fuel : is_nf fuel_err = false.
Proof. reflexivity. Qed.

Lemma trail_id (x : option expr) e : x = Some e ->
  exists x0 used, x = Some x0 /\ (forall ts : list token, ts = used ++ ts) /\ forall ux, toks_expr x0 ux -> toks_expr e (ux ++ used).
Proof. intros ->. exists e, []. repeat split. intros ux H. rewrite app_nil_r. exact H. Qed.

(** the [W] of the expression productions *)
Definition expr_of (cls : expr -> bool) (x : expr) (u : list token) : Prop := toks_expr x u /\ gexpr x = true /\ cls x = true.
Definition list_of (xs : list expr) (u : list token) : Prop := toks_list xs u /\ xs <> [] /\ forallb gexpr xs = true.
Definition tail_of (xs : list expr) (u : list token) : Prop :=
  ((xs = [] /\ u = []) \/ exists c tl, u = c :: tl /\ tkind c = KComma /\ toks_list xs tl /\ xs <> []) /\ forallb gexpr xs = true.
Definition any (x : expr) : bool := true.

Lemma p_qualified_reads ts ps r1 e : p_qualified srclen ts = (ps, r1, e) -> reads (expr_of is_inner) ts (option_map EQual ps) r1.
Proof.
  intros Hpq a Hps. apply option_map_some in Hps as (ps' & -> & ->).
  apply p_qualified_sound in Hpq as (used & Hu & Hq & _). exists used. split; [exact Hu|]. split; [constructor; exact Hq|split; reflexivity].
Qed.

(** The two Pratt loops extend the tree [xo] they are given by the tokens they consume, and climb
    (ParserGram.v) at the level [lvl] they run at. *)
Definition loops (lvl : Z) (xo : option expr) (ts : list token) (x' : option expr) (rest : list token) : Prop :=
  forall e, x' = Some e -> exists x used, xo = Some x /\ ts = used ++ rest /\ (forall ux, toks_expr x ux -> toks_expr e (ux ++ used)) /\ climbs x lvl ts e rest.

Lemma loop_stops xo m ts : ((0 <= m)%Z -> stopT m ts) -> loops m xo ts xo ts.
Proof.
  intros Hst e ->. exists e, []. split; [reflexivity|]. split; [reflexivity|].
  split; [intros ux H; rewrite app_nil_r; exact H|apply climbs_stop; exact Hst].
Qed.

Lemma cons_list x xs u1 u2 : toks_expr x u1 ->
  ((xs = [] /\ u2 = []) \/ exists c tl, u2 = c :: tl /\ tkind c = KComma /\ toks_list xs tl /\ xs <> []) ->
  toks_list (x :: xs) (u1 ++ u2).
Proof.
  intros Hx [[-> ->]|(c & tl & -> & Hc & Hl & Hne)].
  - rewrite app_nil_r. constructor. exact Hx.
  - constructor; assumption.
Qed.

(** [split] at the closing token, a production that uses up the part before it *)
Lemma closes {A} (W : A -> list token -> Prop) k r sub c rest x a subrest e :
  split k r = (sub, c :: rest) -> is_kind k c = true -> (e = [] -> reads W sub x subrest) -> x = Some a ->
  opaque e ++ end_split subrest = [] -> r = sub ++ c :: rest /\ W a sub /\ is_tok k (tok_span c) c.
Proof.
  intros Hs Hc Hp Hx He. apply app_eq_nil in He as [He Hr]. apply opaque_nil in He. apply end_split_nil in Hr. subst e subrest.
  destruct (Hp eq_refl a Hx) as (u & Hu & Hw). rewrite app_nil_r in Hu. subst u.
  pose proof (split_partition k r) as Hr. rewrite Hs in Hr. cbn [fst snd] in Hr.
  split; [symmetry; exact Hr|]. split; [exact Hw|apply is_kind_tok; exact Hc].
Qed.

Lemma bracket {A} (W : A -> list token -> Prop) p k r sub c rest a subrest e :
  Reads W p -> split k r = (sub, c :: rest) -> is_kind k c = true ->
  p sub = (Some a, subrest, e) -> opaque e ++ end_split subrest = [] ->
  r = sub ++ c :: rest /\ W a sub /\ is_tok k (tok_span c) c.
Proof.
  intros Hp Hs Hc E. apply (closes W k r sub c rest (Some a) a subrest e Hs Hc); [|reflexivity].
  intros -> a' [= <-]. exact (Hp _ _ _ E).
Qed.

(** The Pratt loop terminates because a trail that takes an operator consumes it: [p_higher] calls
    itself on what the trail left. *)
Definition takes (minp : Z) (ts : list token) : Prop :=
  match ts with op1 :: _ => ((op_prec (tkind op1) <? 0)%Z || (op_prec (tkind op1) <? minp)%Z) = false | [] => False end.

Definition Out8 (f : nat) : Prop :=
  OutOK srclen (expr_of any) Restores 4 f (pexpr f) /\ OutOK srclen (expr_of is_operand) Restores 3 f (punary f)
  /\ OutOK srclen (expr_of is_primary) Restores 2 f (pprimary f) /\ OutOK srclen (expr_of is_inner) Restores 1 f (pinner f)
  /\ OutOK srclen list_of Restores 5 f (plist f) /\ OutOK srclen tail_of NeverNf 1 f (ptail f)
  /\ (forall x minp ts0 ts x' rest e, within ts0 ts -> ptrail f x minp ts = (x', rest, e) ->
        Out srclen NeverNf (4 * length ts + 3 <= f) ts0 ts rest e (loops minp x ts x' rest) /\ (f <> 0 -> takes minp ts -> length rest < length ts))
  /\ (forall y prec1 ts0 ts y' rest e, within ts0 ts -> phigher f y prec1 ts = (y', rest, e) ->
        Out srclen NeverNf (4 * length ts + 4 <= f) ts0 ts rest e (loops (prec1 + 1) y ts y' rest)).

(** [leaf] for [p_trail], whose invariant has a second part *)
Ltac trail_leaf :=
  let E := fresh in intros E; injection E; clear E; intros; subst;
  split; [out|intros ? Htk; cbn [takes length] in *; solve [contradiction | congruence | lia]].

Lemma out8_all f : Out8 f.
Proof.
  induction f as [|f (He & Hu & Hp & Hi & Hl & Ht & Htr & Hh)].
  { unfold Out8, OutOK. cbn [p_expr p_unary p_primary p_inner p_expr_list p_expr_list_tail p_trail p_higher].
    repeat apply conj; intros; match goal with E : _ = _ |- _ => revert E end; first [trail_leaf | leaf]. }
  assert (Htr' : forall x minp ts0 ts x' rest e, within ts0 ts -> ptrail f x minp ts = (x', rest, e) ->
            Out srclen NeverNf (4 * length ts + 3 <= f) ts0 ts rest e (loops minp x ts x' rest))
    by (intros x minp ts0 ts x' rest e Hw E; apply (Htr _ _ _ _ _ _ _ Hw E)).
  unfold Out8, OutOK in *. repeat apply conj.
  - (* p_expr *)
    intros ts0 ts x rest e Hw. rewrite p_expr_S. destruct (punary f ts) as [[x0 r1] e1] eqn:Eu. sub Hu Eu.
    destruct (is_nf e1) eqn:Enf; [leaf|]. destruct (ptrail f x0 0%Z r1) as [[x' r2] e2] eqn:Et. sub Htr' Et. leaf.
    intros Hnil a Hx. apply app_eq_nil in Hnil as [-> ->]. cbn [app when_ok no_err] in Hx.
    destruct (Et eq_refl a Hx) as (x1 & u2 & -> & -> & Hw2 & Hcl).
    destruct (Eu eq_refl x1 eq_refl) as (u1 & -> & Hu1 & Hg & Hc).
    exists (u1 ++ u2). split; [rewrite app_assoc; reflexivity|]. split; [apply Hw2; exact Hu1|].
    destruct (Hcl Hg (takeok_top _ _ _ (proj1 (operand_levels _ Hc))) (Z.le_refl 0)) as (Hge & _). split; [exact Hge|reflexivity].
  - (* p_unary *)
    intros ts0 ts x rest e Hw. rewrite p_unary_S. destruct ts as [|t r]; [leaf|].
    destruct (is_kind KPlus t || is_kind KMinus t) eqn:Eop.
    + destruct (pprimary f r) as [[x0 r1] e0] eqn:Ep. sub Hp Ep. leaf.
      intros Hnil a Hx. apply opaque_nil in Hnil. subst e0.
      apply option_map_some in Hx as (x1 & Hx1 & ->). apply when_ok_some in Hx1 as (_ & ->).
      destruct (Ep eq_refl x1 eq_refl) as (used & -> & Hu1 & Hg & Hc).
      exists (t :: used). split; [reflexivity|]. split; [|cbn [gexpr is_operand]; rewrite Hg, Hc; split; reflexivity].
      apply te_unary; [|split; reflexivity|exact Hu1].
      apply Bool.orb_true_iff in Eop as [E|E]; apply is_kind_eq in E; auto.
    + destruct (pprimary f (t :: r)) as [[x0 r1] e0] eqn:Ep. sub Hp Ep. leaf.
      intros Hnil a Hx. destruct (Ep Hnil a Hx) as (used & Hts & Hu1 & Hg & Hc).
      exists used. split; [exact Hts|]. split; [exact Hu1|]. split; [exact Hg|apply primary_operand; exact Hc].
  - (* p_primary *)
    intros ts0 ts x rest e Hw. rewrite p_primary_S. destruct (pinner f ts) as [[x0 r1] e0] eqn:Ei. sub Hi Ei.
    destruct (negb (no_err e0)) eqn:Ene; [leaf|]. apply no_err_negb in Ene. subst e0.
    assert (Hplain : reads (expr_of is_primary) ts x0 r1).
    { intros a Hx. destruct (Ei eq_refl a Hx) as (used & Hts & Hu1 & Hg & Hc).
      exists used. split; [exact Hts|]. split; [exact Hu1|]. split; [exact Hg|apply inner_primary; exact Hc]. }
    destruct r1 as [|t r2]; [leaf; intros _; exact Hplain|].
    destruct (is_kind KLBracket t) eqn:Elb; [|leaf; intros _; exact Hplain].
    splt KRBracket r2 Esp.
    destruct (pexpr f l) as [[i subrest] ei] eqn:Ee. sub He Ee. destruct l0 as [|c rest']; [leaf|].
    destruct (is_kind KRBracket c) eqn:Erb; leaf.
    intros He1 a Hx. apply when_ok_some in Hx as (_ & Hx). apply opt_map2_some in Hx as (x1 & i1 & -> & Hi1 & ->).
    destruct (closes _ _ _ _ _ _ _ _ _ _ Esp Erb Ee Hi1 He1) as (-> & (Hti & Hgi & _) & Hc).
    destruct (Ei eq_refl x1 eq_refl) as (used & -> & Hu1 & Hg & Hcl).
    exists (used ++ t :: l ++ [c]). split; [rewrite <- !app_assoc; cbn [app]; rewrite <- app_assoc; reflexivity|].
    split; [apply te_index; [exact Hu1|apply is_kind_tok; exact Elb|exact Hti|exact Hc]|].
    cbn [gexpr is_primary]. rewrite Hg, Hcl, Hgi. split; reflexivity.
  - (* p_inner *)
    intros ts0 ts x rest e Hw. rewrite p_inner_S. destruct ts as [|t r]; [leaf|].
    destruct (is_kind KNumber t || is_kind KString t) eqn:Elit.
    { leaf. intros _ a [= <-]. exists [t]. split; [reflexivity|]. split; [|split; reflexivity].
      apply te_lit with (t := t); try reflexivity.
      apply Bool.orb_true_iff in Elit as [E|E]; apply is_kind_eq in E; auto. }
    destruct (is_kind KIdentifier t) eqn:Eid.
    { destruct (p_qualified srclen (t :: r)) as [[ps r1] e0] eqn:Epq. pose proof Epq as Hpq. sub p_qualified_out Epq.
      destruct ps as [[|i [|j l]]|]; try (leaf; intros _; exact (p_qualified_reads _ _ _ _ Hpq)).
      destruct (p_qualified_sound _ _ _ _ Hpq) as (usedq & Hts & Hqq & ->).
      apply qual_single in Hqq as (tf & -> & Hif). cbn [app] in Hts. injection Hts as <- ->.
      assert (Hnq : iquoted i = false).
      { destruct Hif as (Hk & _). apply is_kind_eq in Eid. rewrite Eid in Hk. destruct (iquoted i); [discriminate|reflexivity]. }
      assert (Hname : reads (expr_of is_inner) (t :: r1) (Some (EQual [i])) r1).
      { intros a [= <-]. exists [t]. split; [reflexivity|]. split; [constructor; constructor; exact Hif|split; reflexivity]. }
      destruct r1 as [|lp r2]; [leaf; intros _; exact Hname|].
      destruct (is_kind KLParen lp) eqn:Elp; [|leaf; intros _; exact Hname].
      splt KRParen r2 Esp.
      pose proof (split_partition KRParen r2) as Hr2. rewrite Esp in Hr2. cbn [fst snd] in Hr2. subst r2.
      destruct (plist f l) as [[args subrest] ea] eqn:El. sub Hl El.
      destruct l0 as [|c rest']; [|destruct (is_kind KRParen c) eqn:Erp].
      1, 3: destruct (is_nf ea) eqn:Enf; [|destruct (no_err ea); [destruct subrest as [|c0 sr]; [|destruct (is_kind KComma c0)]|]]; leaf.
      (* whichever way the argument list ended, the call is closed the same way *)
      assert (Hcall : forall args', toks_args args' l -> forallb gexpr args' = true ->
                reads (expr_of is_inner) (t :: lp :: l ++ c :: rest') (Some (ECall i (tok_span lp) args' (tok_span c))) rest').
      { intros args' Ha Hga a [= <-]. exists (t :: lp :: l ++ [c]). split; [cbn [app]; rewrite <- app_assoc; reflexivity|].
        split; [apply te_call; [exact Hif|exact Hnq|apply is_kind_tok; exact Elp|exact Ha|apply is_kind_tok; exact Erp]|].
        cbn [gexpr is_inner]. rewrite Hga. split; reflexivity. }
      destruct (is_nf ea) eqn:Enf.
      { leaf. intros Hnil. cbn [app] in Hnil. apply end_split_nil in Hnil. subst subrest. assert (l = []) as -> by (symmetry; auto).
        exact (Hcall [] ta_none eq_refl). }
      destruct (no_err ea) eqn:Ene; [|leaf]. apply no_err_true in Ene. subst ea.
      destruct subrest as [|c0 sr].
      { leaf. intros _ a Hx. destruct args as [args1|]; [|discriminate Hx]. destruct (El eq_refl args1 eq_refl) as (ul & Hsub & Hls & Hne & Hga).
        rewrite app_nil_r in Hsub. subst ul. exact (Hcall args1 (ta_list _ _ Hls Hne) Hga a Hx). }
      destruct (is_kind KComma c0) eqn:Ec0; [|leaf].
      leaf. intros Hnil a Hx. cbn [app] in Hnil. apply end_split_nil in Hnil. subst sr.
      destruct args as [args1|]; [|discriminate Hx]. destruct (El eq_refl args1 eq_refl) as (ul & -> & Hls & Hne & Hga).
      exact (Hcall args1 (ta_trailing _ _ _ Hls Hne (is_kind_eq _ _ Ec0)) Hga a Hx). }
    destruct (is_kind KQuotedIdentifier t).
    { destruct (p_qualified srclen (t :: r)) as [[ps r1] e0] eqn:Epq. pose proof Epq as Hpq. sub p_qualified_out Epq. leaf. intros _. exact (p_qualified_reads _ _ _ _ Hpq). }
    destruct (is_kind KLParen t) eqn:Elp; [|leaf].
    splt KRParen r Esp.
    destruct (pexpr f l) as [[x0 subrest] ex] eqn:Ee. sub He Ee. destruct l0 as [|c rest']; [leaf|].
    destruct (is_kind KRParen c) eqn:Erp; leaf.
    intros Hnil a Hx. apply when_ok_some in Hx as (_ & Hx). apply option_map_some in Hx as (x1 & Hx1 & ->).
    destruct (closes _ _ _ _ _ _ _ _ _ _ Esp Erp Ee Hx1 Hnil) as (-> & (Hu1 & Hg & _) & Hc).
    exists (t :: l ++ [c]). split; [cbn [app]; rewrite <- app_assoc; reflexivity|].
    split; [apply te_paren; [apply is_kind_tok; exact Elp|exact Hu1|exact Hc]|]. cbn [gexpr is_inner]. rewrite Hg. split; reflexivity.
  - (* p_expr_list *)
    intros ts0 ts x rest e Hw. rewrite p_expr_list_S. destruct (pexpr f ts) as [[x0 r1] e1] eqn:Ee. sub He Ee.
    destruct (negb (no_err e1)) eqn:Ene; [leaf|]. apply no_err_negb in Ene. subst e1.
    destruct (ptail f r1) as [[xs r2] e2] eqn:Et. sub Ht Et. leaf.
    intros -> a Hx. cbn [when_ok no_err] in Hx. apply opt_map2_some in Hx as (x1 & xs1 & -> & -> & ->).
    destruct (Ee eq_refl x1 eq_refl) as (u1 & -> & Hu1 & Hg1 & _).
    destruct (Et eq_refl xs1 eq_refl) as (u2 & -> & Hu2 & Hg2).
    exists (u1 ++ u2). split; [rewrite app_assoc; reflexivity|]. split; [apply cons_list; assumption|].
    split; [discriminate|]. cbn [forallb]. rewrite Hg1, Hg2. reflexivity.
  - (* p_expr_list_tail *)
    intros ts0 ts x rest e Hw. rewrite p_expr_list_tail_S.
    assert (Hnone : forall r, reads tail_of r (Some []) r).
    { intros r a [= <-]. exists []. split; [reflexivity|]. split; [left; auto|reflexivity]. }
    destruct ts as [|c r]; [leaf; intros _; apply Hnone|].
    destruct (is_kind KComma c) eqn:Ec; [|leaf; intros _; apply Hnone]. destruct (pexpr f r) as [[x0 r1] e1] eqn:Ee. sub He Ee.
    destruct (is_nf e1) eqn:Enf; [leaf; intros _; apply Hnone|]. destruct (negb (no_err e1)) eqn:Ene; [leaf|].
    apply no_err_negb in Ene. subst e1.
    destruct (ptail f r1) as [[xs r2] e2] eqn:Et. sub Ht Et. leaf.
    intros -> a Hx. cbn [when_ok no_err] in Hx. apply opt_map2_some in Hx as (x1 & xs1 & -> & -> & ->).
    destruct (Ee eq_refl x1 eq_refl) as (u1 & -> & Hu1 & Hg1 & _).
    destruct (Et eq_refl xs1 eq_refl) as (u2 & -> & Hu2 & Hg2).
    exists (c :: u1 ++ u2). split; [cbn [app]; rewrite app_assoc; reflexivity|].
    split; [|cbn [forallb]; rewrite Hg1, Hg2; reflexivity].
    right. exists c, (u1 ++ u2). repeat split; [apply is_kind_eq; exact Ec|apply cons_list; assumption|discriminate].
  - (* p_trail *)
    intros x0 minp ts0 ts x rest e Hw. rewrite p_trail_S. cbv zeta.
    destruct ts as [|op1 r]; [trail_leaf; intros _; apply loop_stops; intros _; exact I|].
    destruct (_ || _) eqn:Eth.
    { trail_leaf. intros _. apply loop_stops. intros Hm. cbn [stopT].
      apply Bool.orb_true_iff in Eth as [E|E]; apply Z.ltb_lt in E; lia. }
    pose proof (proj1 (Bool.orb_false_iff _ _) Eth) as [Ep0 Epm]. apply Z.ltb_ge in Ep0. apply Z.ltb_ge in Epm.
    destruct (is_kind KIn op1) eqn:Ein.
    + destruct r as [|lp r1]; [trail_leaf|]. destruct (is_kind KLParen lp) eqn:Elp; [|trail_leaf].
      splt KRParen r1 Esp.
      destruct (plist f l) as [[vals subrest] ev] eqn:El. sub Hl El. destruct l0 as [|c rest']; [trail_leaf|].
      destruct (is_kind KRParen c) eqn:Erp; [|trail_leaf].
      destruct (ptrail f _ minp rest') as [[x'' r2] e2] eqn:Et. sub Htr' Et. trail_leaf.
      intros Hnil e' Hx. apply app_eq_nil in Hnil as [He1 ->]. rewrite He1 in *. cbn [app when_ok no_err] in Hx, Et.
      destruct (Et eq_refl e' Hx) as (xin & u3 & Hxin & -> & Hw3 & Hcl).
      apply opt_map2_some in Hxin as (x1 & vs & -> & Hvs & ->).
      destruct (closes _ _ _ _ _ _ _ _ _ _ Esp Erp El Hvs He1) as (-> & (Hls & Hne & Hgl) & Hc).
      exists x1, (op1 :: lp :: l ++ c :: u3). split; [reflexivity|]. split; [cbn [app]; rewrite <- app_assoc; reflexivity|].
      split; [|apply (climbs_in _ _ _ _ _ _ _ _ _ _ _ (is_kind_eq _ _ Ein) Epm Hgl Hcl)].
      intros ux Hux.
      replace (ux ++ op1 :: lp :: l ++ c :: u3) with ((ux ++ op1 :: lp :: l ++ [c]) ++ u3)
        by (rewrite <- !app_assoc; cbn [app]; rewrite <- app_assoc; reflexivity).
      apply Hw3. apply te_in; try assumption; apply is_kind_tok; assumption.
    + destruct (punary f r) as [[y r1] ey] eqn:Eu. sub Hu Eu.
      destruct (phigher f y (op_prec (tkind op1)) r1) as [[y' r2] e2] eqn:Eh. sub Hh Eh.
      destruct (ptrail f _ minp r2) as [[x'' r3] e3] eqn:Et. sub Htr' Et. trail_leaf.
      intros Hnil e' Hx. apply app_eq_nil in Hnil as [He1 He23]. apply app_eq_nil in He23 as [-> ->].
      rewrite He1 in *. cbn [app when_ok no_err] in Hx, Et. apply opaque_nil in He1. subst ey.
      destruct (Et eq_refl e' Hx) as (xb & u3 & Hxb & -> & Hw3 & Hcl).
      apply opt_map2_some in Hxb as (x1 & y1 & -> & -> & ->).
      destruct (Eh eq_refl y1 eq_refl) as (y0 & u2 & -> & -> & Hwy & Hcly).
      destruct (Eu eq_refl y0 eq_refl) as (u1 & -> & Hu1 & Hgy & Hcy).
      exists x1, (op1 :: u1 ++ u2 ++ u3). split; [reflexivity|]. split; [cbn [app]; rewrite <- !app_assoc; reflexivity|].
      split; [|exact (climbs_bin _ _ _ _ _ _ _ _ _ _ _ Ep0 Epm Hgy Hcy Hcly Hcl)].
      intros ux Hux.
      replace (ux ++ op1 :: u1 ++ u2 ++ u3) with ((ux ++ op1 :: (u1 ++ u2)) ++ u3)
        by (rewrite <- !app_assoc; cbn [app]; rewrite <- app_assoc; reflexivity).
      apply Hw3. apply te_bin; [exact Ep0|apply is_kind_neq; exact Ein|exact Hux|split; reflexivity|apply Hwy; exact Hu1].
  - (* p_higher *)
    intros y0 prec1 ts0 ts x rest e Hw. rewrite p_higher_S. cbv zeta.
    destruct ts as [|op2 r]; [leaf; intros _; apply loop_stops; intros _; exact I|].
    destruct (_ || _) eqn:Eth.
    { leaf. intros _. apply loop_stops. intros Hm. cbn [stopT].
      apply Bool.orb_true_iff in Eth as [E|E]; [apply Z.ltb_lt in E|apply Z.leb_le in E]; lia. }
    destruct (ptrail f y0 (prec1 + 1)%Z (op2 :: r)) as [[y' r1] e1] eqn:Et.
    assert (Hprog : f <> 0 -> length r1 < length (op2 :: r)).
    { intros Hf0. apply (proj2 (Htr _ _ _ _ _ _ _ (within_refl _) Et) Hf0). cbn [takes].
      apply Bool.orb_false_iff in Eth as [E1 E2]. rewrite E1. cbn [orb]. apply Z.ltb_ge. apply Z.leb_gt in E2. lia. }
    sub Htr' Et.
    destruct (phigher f y' prec1 r1) as [[y'' r2] e2] eqn:Eh. sub Hh Eh. leaf.
    intros Hnil e' Hx. apply app_eq_nil in Hnil as [He1 ->]. apply opaque_nil in He1. subst e1.
    cbn [opaque map app when_ok no_err] in Hx.
    destruct (Eh eq_refl e' Hx) as (ym & u2 & -> & -> & Hw2 & Hc2).
    destruct (Et eq_refl ym eq_refl) as (y1 & u1 & -> & Hu1 & Hw1 & Hc1).
    exists y1, (u1 ++ u2). split; [reflexivity|]. split; [rewrite Hu1, app_assoc; reflexivity|].
    split; [intros uy Huy; rewrite app_assoc; apply Hw2, Hw1; exact Huy|exact (climbs_trans _ _ _ _ _ _ _ Hc1 Hc2)].
Qed.

Theorem p_expr_out f : OutOK srclen (expr_of any) Restores 4 f (pexpr f).
Proof. exact (proj1 (out8_all f)). Qed.
Theorem p_expr_list_out f : OutOK srclen list_of Restores 5 f (plist f).
Proof. destruct (out8_all f) as (_ & _ & _ & _ & H & _). exact H. Qed.

(** C08: "not found" only with nothing consumed *)
Theorem p_expr_nf f ts x rest e : pexpr f ts = (x, rest, e) -> is_nf e = true -> rest = ts.
Proof. intros H. exact (out_nf _ _ _ _ _ _ _ _ (p_expr_out f _ _ _ _ _ (within_refl _) H)). Qed.

(** C08 for expressions: a tree returned without errors has the consumed tokens as its token sequence *)
Theorem p_expr_sound f ts x rest : pexpr f ts = (Some x, rest, []) -> exists used, ts = used ++ rest /\ toks_expr x used.
Proof. intros H. destruct (ok_reads _ _ _ _ _ _ (p_expr_out f) _ _ _ H) as (u & Hu & Hx & _). eauto. Qed.

Theorem p_expr_list_sound f ts xs rest : plist f ts = (Some xs, rest, []) ->
  exists used, ts = used ++ rest /\ toks_list xs used /\ xs <> [].
Proof. intros H. destruct (ok_reads _ _ _ _ _ _ (p_expr_list_out f) _ _ _ H) as (u & Hu & Hx & Hne & _). eauto. Qed.
End Exprs.
