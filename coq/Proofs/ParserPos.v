(** * C10: positions of parse errors lie inside the source.  By the field [out_pos] of [Out]
    (ParserSound.v) every error position is the start of a token given or the end of the source, and
    tokens lie inside the source. *)
From PQL Require Import Model.Parser Proofs.LexerFacts Proofs.ParserSound Proofs.ParserSoundStmt.
From Coq Require Import Lia.
Local Open Scope list_scope.
Local Open Scope nat_scope.
Local Notation length := List.length (only parsing).

Section Pos.
Variable n : nat.   (* the length of the source *)

(** token bound and error bound *)
Definition TB (ts : list token) : Prop := Forall (fun t => tstart t <= n) ts.
Definition EB (e : errs) : Prop := Forall (fun x => match epos x with Some p => p <= n | None => True end) e.

Lemma pos_from_bounded1 ts x : TB ts -> pos_from n ts x -> match epos x with Some p => p <= n | None => True end.
Proof.
  intros HT. unfold pos_from. destruct (epos x) as [p|]; [|trivial].
  unfold TB in HT. rewrite Forall_forall in HT. intros [->|(t & Ht & ->)]; [apply le_n|apply HT; exact Ht].
Qed.

Lemma pos_from_bounded ts e : TB ts -> Forall (pos_from n ts) e -> EB e.
Proof. intros HT. apply Forall_impl. intros x. apply pos_from_bounded1. exact HT. Qed.

Lemma within_bounded ts l : TB ts -> within ts l -> TB l.
Proof. unfold TB, within. rewrite !Forall_forall. auto. Qed.

Definition PosOK {A} (p : list token -> option A * list token * errs) : Prop :=
  forall ts x rest e, TB ts -> p ts = (x, rest, e) -> TB rest /\ EB e.

Lemma out_bounded k En ts0 ts rest e ok : Out n k En ts0 ts rest e ok -> TB ts0 -> TB rest /\ EB e.
Proof. intros [T _ Ps _ _ _] HT. split; [exact (within_bounded _ _ HT T)|exact (pos_from_bounded _ _ HT Ps)]. Qed.

Lemma p_expr_pos f : PosOK (p_expr n f).
Proof. intros ts x rest e HT H. exact (out_bounded _ _ _ _ _ _ _ (p_expr_out n f _ _ _ _ _ (within_refl _) H) HT). Qed.
Lemma p_expr_list_pos f : PosOK (p_expr_list n f).
Proof. intros ts x rest e HT H. exact (out_bounded _ _ _ _ _ _ _ (p_expr_list_out n f _ _ _ _ _ (within_refl _) H) HT). Qed.
Lemma p_statement_pos f : PosOK (p_statement n f).
Proof. intros ts x rest e HT H. exact (out_bounded _ _ _ _ _ _ _ (p_statement_out n f _ _ _ _ _ (within_refl _) H) HT). Qed.

Lemma p_statements_pos f : forall k ts acc l e, TB ts -> EB acc -> p_statements n k f ts acc = (l, e) -> EB e.
Proof.
  intros k ts acc l e HT Hacc H.
  apply (proj1 (p_statements_out n f k ts acc l e ts H (within_refl ts))); [intros x Hx; exact Hx| |exact Hacc].
  intros x. apply pos_from_bounded1. exact HT.
Qed.
End Pos.

Lemma toks_within_starts lo hi ts : toks_within lo hi ts -> Forall (fun t => tstart t <= hi) ts.
Proof. intros Hw. induction Hw as [|lo hi t ts H1 H2 H3 H4 IH]; constructor; [lia|exact IH]. Qed.

(** offsets 0 .. length, the end included *)
Theorem parse_tokens_error_positions srclen ts e : Forall (fun t => tstart t <= srclen) ts ->
  parse_tokens srclen ts = ParseErr e -> Forall (fun x => match epos x with Some p => p <= srclen | None => True end) e.
Proof.
  intros HT. unfold parse_tokens. destruct (p_statements srclen _ _ ts []) as [l e0] eqn:Ep.
  pose proof (p_statements_pos srclen _ _ _ _ _ _ HT (Forall_nil _) Ep) as HE.
  destruct (existsb efuel e0); [discriminate|]. destruct (no_err e0); [destruct l; discriminate|]. intros [= <-]. exact HE.
Qed.

Theorem parse_error_positions s e : parse s = ParseErr e ->
  Forall (fun x => match epos x with Some p => p <= length s | None => True end) e.
Proof. apply parse_tokens_error_positions. exact (toks_within_starts _ _ _ (scan_within s)). Qed.
