(** * Line and column of an offset (property C10, Props/C10.v).  The line reported for offset [p]
    is one more than the number of newline bytes before [p], the column is at least 1; for an
    ASCII line without tabs the column is one more than the distance from the line start. *)
From PQL Require Import Model.Parser Proofs.LexerFacts Proofs.LexCut Proofs.LexValues.
From Coq Require Import Lia ZifyBool.
Local Open Scope list_scope.
Local Open Scope nat_scope.
Local Notation length := List.length (only parsing).

Definition count_nl (l : str) : nat := List.length (filter (fun c => (c =? 10)%N) l).

Lemma count_nl_app a b : count_nl (a ++ b) = count_nl a + count_nl b.
Proof. unfold count_nl. rewrite filter_app, app_length. reflexivity. Qed.

Lemma count_nl_hi l : forallb hi l = true -> count_nl l = 0.
Proof.
  induction l as [|c r IH]; [reflexivity|]. cbn [forallb]. intros H. apply andb_prop in H as [Hc Hr].
  unfold count_nl in *. cbn [filter]. unfold hi in Hc. replace (c =? 10)%N with false by lia. apply IH. exact Hr.
Qed.

Lemma count_nl_decode l : l <> [] ->
  count_nl l = (if (fst (decode l) =? 10)%N then 1 else 0) + count_nl (skipn (snd (decode l)) l).
Proof.
  destruct l as [|b r]; [congruence|]. intros _.
  destruct (decode_cases b r) as [[Hb ->]|[Hb H]].
  - cbn [fst snd skipn]. unfold count_nl. cbn [filter]. destruct (b =? 10)%N; reflexivity.
  - destruct (decode (b :: r)) as [c w]. destruct H as (Hc & _ & _ & Hh). cbn [fst snd].
    replace (c =? 10)%N with false by lia.
    rewrite <- (firstn_skipn w (b :: r)) at 1. rewrite count_nl_app, (count_nl_hi _ Hh). reflexivity.
Qed.

Lemma linecol_go_spec : forall f l line col, length l < f -> 1 <= col ->
  fst (linecol_go f l line col) = line + count_nl l /\ 1 <= snd (linecol_go f l line col).
Proof.
  induction f as [|f IH]; intros l line col Hf Hc; [lia|].
  destruct l as [|b r]; [cbn; split; [unfold count_nl; cbn; lia|exact Hc]|].
  assert (Hne : b :: r <> []) by discriminate.
  cbn [linecol_go]. rewrite (count_nl_decode _ Hne). pose proof (decode_width _ Hne) as Hw.
  destruct (decode (b :: r)) as [c w]. cbn [fst snd] in *.
  assert (Hl : length (skipn w (b :: r)) < f) by (rewrite skipn_length; lia).
  destruct (c =? 10)%N; [|destruct (c =? 9)%N].
  - destruct (IH _ (S line) 1 Hl (le_n _)) as [-> H2]. split; [lia|exact H2].
  - destruct (IH _ line (col + (8 - (col - 1) mod 8)) Hl ltac:(lia)) as [-> H2]. split; [lia|exact H2].
  - destruct (IH _ line (S col) Hl ltac:(lia)) as [-> H2]. split; [lia|exact H2].
Qed.

Theorem linecol_spec s p : fst (linecol s p) = 1 + count_nl (firstn p s) /\ 1 <= snd (linecol s p).
Proof. unfold linecol. apply linecol_go_spec; lia. Qed.

Corollary linecol_line_in_source s p : 1 <= fst (linecol s p) <= 1 + count_nl s.
Proof.
  destruct (linecol_spec s p) as [H _]. rewrite H. split; [lia|].
  rewrite <- (firstn_skipn p s) at 2. rewrite count_nl_app. lia.
Qed.

Lemma linecol_go_plain : forall l f line col, length l < f ->
  forallb (fun c => (c <? 128)%N && negb (c =? 10)%N && negb (c =? 9)%N) l = true ->
  linecol_go f l line col = (line, col + length l).
Proof.
  induction l as [|b r IH]; intros f line col Hf H; destruct f as [|f]; try (cbn [length] in Hf; lia).
  - cbn. f_equal. lia.
  - cbn [forallb] in H. apply andb_prop in H as [Hb Hr]. cbn [linecol_go]. rewrite ascii_decode by lia.
    replace (b =? 10)%N with false by lia. replace (b =? 9)%N with false by lia. cbn [skipn].
    rewrite (IH f line (S col) ltac:(cbn [length] in Hf; lia) Hr). cbn [length]. f_equal. lia.
Qed.

(** behind a newline the column restarts at 1: a rune that begins before the newline ends
    before it ([decode_cut]) *)
Lemma linecol_go_nl b : forall a f line col, length (a ++ 10%N :: b) < f ->
  exists f', length b < f' /\ linecol_go f (a ++ 10%N :: b) line col = linecol_go f' b (S (line + count_nl a)) 1.
Proof.
  intros a. remember (length a) as m eqn:Em. revert a Em. induction m as [m IH] using lt_wf_ind.
  intros a -> f line col Hf. destruct f as [|f]; [lia|]. destruct a as [|x a'].
  - exists f. cbn [app length] in *. split; [lia|]. cbn [linecol_go]. rewrite ascii_decode by lia.
    rewrite Nat.add_0_r. reflexivity.
  - cbn [app linecol_go]. change (x :: a' ++ 10%N :: b) with ((x :: a') ++ 10%N :: b). set (a := x :: a') in *.
    assert (Ha : a <> []) by discriminate.
    rewrite (decode_cut 10 a b (or_intror (or_introl eq_refl)) Ha), (count_nl_decode _ Ha).
    pose proof (decode_width _ Ha) as Hw. destruct (decode a) as [c w]. cbn [fst snd] in *.
    rewrite skipn_app_le by lia. rewrite app_length in Hf.
    assert (Hl : length (skipn w a ++ 10%N :: b) < f) by (rewrite app_length, skipn_length; lia).
    assert (Hm : length (skipn w a) < length a) by (rewrite skipn_length; lia).
    destruct (c =? 10)%N; [|destruct (c =? 9)%N].
    + destruct (IH _ Hm _ eq_refl f (S line) 1 Hl) as (f' & Hf' & ->). exists f'. split; [exact Hf'|]. f_equal. lia.
    + destruct (IH _ Hm _ eq_refl f line (col + (8 - (col - 1) mod 8)) Hl) as (f' & Hf' & ->). exists f'. split; [exact Hf'|reflexivity].
    + destruct (IH _ Hm _ eq_refl f line (S col) Hl) as (f' & Hf' & ->). exists f'. split; [exact Hf'|reflexivity].
Qed.

Theorem linecol_plain_line pre line_text rest :
  forallb (fun c => (c <? 128)%N && negb (c =? 10)%N && negb (c =? 9)%N) line_text = true ->
  linecol (pre ++ 10%N :: line_text ++ rest) (length pre + 1 + length line_text) =
  (2 + count_nl pre, 1 + length line_text).
Proof.
  intros H. unfold linecol.
  replace (pre ++ 10%N :: line_text ++ rest) with ((pre ++ 10%N :: line_text) ++ rest) by (rewrite <- app_assoc; reflexivity).
  rewrite firstn_app_le, firstn_all2 by (rewrite app_length; cbn [length]; lia).
  destruct (linecol_go_nl line_text pre _ 1 1 (le_n _)) as (f' & Hf' & ->).
  rewrite linecol_go_plain by assumption. reflexivity.
Qed.
