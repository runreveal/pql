(** * Property C01 (Props/C01.v): the expression the writer prints re-reads, under the SQL
    dialect's operator precedence, as exactly the tree the writer intends ([trans]).  The reader is
    that of Spec/SqlParse.v.  Printed pieces are viewed as SQL tokens piece by piece ([ptoks]);
    that the concatenated bytes lex into these tokens is shown in SqlGlue*.v.
    At the end: the scope that let statements build, property C06 (Props/C06.v). *)
From PQL Require Import Spec.SqlRead Spec.Flatten Proofs.ExprInd Proofs.TableFacts Proofs.ParserSound Proofs.ParserReject.
From PQL Require Export Proofs.WriterEqns.
From Coq Require Import Lia String.
Local Open Scope list_scope.
Local Open Scope nat_scope.
Local Notation length := List.length (only parsing).

(** the fuelled reader [p] returns [r] for every sufficiently large fuel *)
Definition Conv {R} (p : nat -> option R) (r : R) : Prop := exists f0, forall f, f0 <= f -> p f = Some r.

Lemma conv_ret {R} (r : R) : Conv (fun _ => Some r) r.
Proof. exists 0. reflexivity. Qed.

(** The only places that count fuel: spend one unit ([apply conv_S; cbn [sx_atom]] unfolds
    [sx_atom] once, under the binder), or continue with the result of a sub-read. *)
Lemma conv_S {R} (p : nat -> option R) r : Conv (fun f => p (S f)) r -> Conv p r.
Proof. intros (f0 & H). exists (S f0). intros [|f] Hle; [lia|]. apply H. lia. Qed.

Lemma conv_subst {X R} (p : nat -> option X) x (q q' : nat -> option R) r :
  Conv p x -> (forall f, p f = Some x -> q f = q' f) -> Conv q' r -> Conv q r.
Proof. intros (f1 & H1) Hq (f2 & H2). exists (f1 + f2). intros f Hle. rewrite (Hq f) by (apply H1; lia). apply H2. lia. Qed.

Lemma conv_bind {X R} (p : nat -> option X) x (k : nat -> X -> option R) r :
  Conv p x -> Conv (fun f => k f x) r -> Conv (fun f => match p f with Some y => k f y | None => None end) r.
Proof. intros Hp. apply (conv_subst p x _ _ r Hp). intros f ->. reflexivity. Qed.

Lemma conv_some {R} (p : nat -> option R) r : Conv p r -> exists f, p f = Some r.
Proof. intros (f0 & H). exists f0. apply H, le_n. Qed.

(** rewrite set [flat]: token lists in the right-nested form [t :: a ++ b ++ rest], in which the
    reader's equations apply *)
#[export] Hint Rewrite <- app_assoc app_comm_cons : flat.
#[export] Hint Rewrite app_nil_l app_nil_r : flat.

(** a token after which no operator, postfix or call can continue the expression *)
Definition stop_tok (t : stok) : bool :=
  match bin_level t with None => true | Some _ => false end
  && negb (is_w k_IS t) && negb (is_w k_IN t) && negb (is_w k_NOT t) && negb (is_w k_FILTER t)
  && negb (is_p p_lp t) && negb (is_p p_lb t) && negb (is_p p_dot t).
Definition stop (rest : list stok) : Prop := match rest with [] => True | t :: _ => stop_tok t = true end.
(** what may follow an atom ([nf]); a closed operand ([nb]): additionally no `[` *)
Definition nf (rest : list stok) : Prop := match rest with [] => True | t :: _ => is_p p_lp t = false /\ is_w k_FILTER t = false /\ is_p p_dot t = false end.
Definition nb (rest : list stok) : Prop := match rest with [] => True | t :: _ => is_p p_lp t = false /\ is_w k_FILTER t = false /\ is_p p_dot t = false /\ is_p p_lb t = false end.

Lemma nb_nf rest : nb rest -> nf rest.
Proof. destruct rest; [auto|]. cbn. tauto. Qed.

Lemma stop_facts t : stop_tok t = true ->
  is_p p_lp t = false /\ is_w k_FILTER t = false /\ is_p p_lb t = false /\ is_w k_IS t = false /\ is_w k_IN t = false /\ bin_level t = None
  /\ is_w k_NOT t = false /\ is_p p_dot t = false.
Proof.
  unfold stop_tok. intros H. repeat (apply andb_prop in H as [H ?]).
  repeat match goal with Hn : negb _ = true |- _ => apply Bool.negb_true_iff in Hn end.
  destruct (bin_level t); [discriminate|]. repeat split; assumption.
Qed.

Lemma stop_nb rest : stop rest -> nb rest.
Proof. destruct rest as [|t r]; [auto|]. cbn. intros H. apply stop_facts in H. tauto. Qed.

Lemma loop_stop rest minp x : stop rest -> Conv (fun f => sx_loop f minp x rest) (x, rest).
Proof.
  intros H. apply conv_S. destruct rest as [|t r]; cbn [sx_loop]; [apply conv_ret|].
  apply stop_facts in H as (_ & _ & _ & H1 & H2 & H3 & _). rewrite H1, H2, H3. apply conv_ret.
Qed.

(** Three classes of token lists, by the reader function that consumes them; A -> C -> Fx.
    A lemma [A_x], [C_x], [Fx_x] puts the tokens of the SQL form x into its class, given the
    classes of its parts. *)
(** an atom: read by [sx_atom], whatever follows (within [nf]) *)
Definition hd_ok (ts : list stok) : Prop :=
  exists t0 r0, ts = t0 :: r0 /\ is_w k_NOT t0 = false /\ is_p p_minus t0 = false /\ is_p p_plus t0 = false /\ is_p p_rp t0 = false.
Definition A (ts : list stok) (t : sexpr) : Prop :=
  hd_ok ts /\ forall rest, nf rest -> Conv (fun f => sx_atom f (ts ++ rest)) (t, rest).
(** a closed operand: read by [sx_prefix] at any level, whatever follows (within [nb]) *)
Definition hd_nrp (ts : list stok) : Prop := exists t0 r0, ts = t0 :: r0 /\ is_p p_rp t0 = false.
Definition C (ts : list stok) (t : sexpr) : Prop :=
  hd_nrp ts /\ forall rest minp, nb rest -> Conv (fun f => sx_prefix f minp (ts ++ rest)) (t, rest).
(** a full expression: read by [sx] at level 0 up to a stop token *)
Definition Fx (ts : list stok) (t : sexpr) : Prop :=
  hd_nrp ts /\ forall rest, stop rest -> Conv (fun f => sx f 0 (ts ++ rest)) (t, rest).

Lemma postfix_stop rest x : nb rest -> Conv (fun f => sx_postfix f x rest) (x, rest).
Proof.
  intros H. apply conv_S. destruct rest as [|t r]; cbn [sx_postfix]; [apply conv_ret|].
  destruct H as (_ & _ & _ & H). rewrite H. apply conv_ret.
Qed.

Lemma A_C ts t : A ts t -> C ts t.
Proof.
  intros [(t0 & r0 & -> & H1 & H2 & H3 & H4) HA]. split; [exists t0, r0; auto|].
  intros rest minp Hnb. apply conv_S. cbn [sx_prefix app]. rewrite H1, H2, H3. cbn [orb].
  eapply conv_bind; [apply (HA rest (nb_nf _ Hnb))|]. apply postfix_stop, Hnb.
Qed.

Lemma C_E ts t : C ts t -> forall rest minp, stop rest -> Conv (fun f => sx f minp (ts ++ rest)) (t, rest).
Proof.
  intros [_ HC] rest minp Hs. apply conv_S. cbn [sx].
  eapply conv_bind; [apply (HC rest minp (stop_nb _ Hs))|]. apply loop_stop, Hs.
Qed.

Lemma C_Fx ts t : C ts t -> Fx ts t.
Proof. intros H. split; [apply H|]. intros rest Hs. apply (C_E ts t H rest 0 Hs). Qed.

Lemma A_num n : A [SNumber n] (XNum n).
Proof. split; [exists (SNumber n), []; repeat split; reflexivity|]. intros rest _. apply conv_S. cbn [sx_atom app]. apply conv_ret. Qed.
Lemma A_str s : A [SString s] (XStr s).
Proof. split; [exists (SString s), []; repeat split; reflexivity|]. intros rest _. apply conv_S. cbn [sx_atom app]. apply conv_ret. Qed.

Definition plain_word (w : str) : Prop := str_eqb (map upper_c w) k_NOT = false /\ str_eqb (map upper_c w) k_CASE = false.

Lemma A_word w : plain_word w -> A [SWord w] (XWord w).
Proof.
  intros [H1 H2]. split; [exists (SWord w), []; repeat split; try reflexivity; exact H1|].
  intros rest Hnf. apply conv_S. cbn [sx_atom app]. rewrite H2.
  destruct rest as [|t r]; [apply conv_ret|]. destruct Hnf as (Hlp & _). rewrite Hlp. apply conv_ret.
Qed.

Fixpoint dots (ps : list str) : list stok :=
  match ps with [] => [] | q :: r => SPunct p_dot :: SQuoted q :: dots r end.

Lemma col_tail_dots ps rest : nf rest -> col_tail (dots ps ++ rest) = (ps, rest).
Proof.
  intros Hnf. induction ps as [|q r IH]; cbn [dots app].
  - destruct rest as [|t r0]; [reflexivity|]. cbn in Hnf. destruct Hnf as (_ & _ & Hd).
    destruct t as [s|s|s|s|s|s]; try reflexivity. cbn [col_tail]. destruct r0 as [|t2 r2]; [reflexivity|].
    destruct t2; try reflexivity. unfold is_p in Hd. rewrite Hd. reflexivity.
  - cbn [col_tail]. change (str_eqb p_dot p_dot) with true. cbn iota. rewrite IH. reflexivity.
Qed.

Lemma A_col q ps : A (SQuoted q :: dots ps) (XCol (q :: ps)).
Proof.
  split; [exists (SQuoted q), (dots ps); repeat split; reflexivity|].
  intros rest Hnf. apply conv_S. cbn [sx_atom app]. rewrite (col_tail_dots ps rest Hnf). apply conv_ret.
Qed.

Definition lp_t := SPunct p_lp. Definition rp_t := SPunct p_rp.
Definition lb_t := SPunct p_lb. Definition rb_t := SPunct p_rb. Definition comma_t := SPunct p_comma.

Lemma stop_rp r : stop (rp_t :: r). Proof. reflexivity. Qed.
Lemma stop_comma r : stop (comma_t :: r). Proof. reflexivity. Qed.
Lemma stop_rb r : stop (rb_t :: r). Proof. reflexivity. Qed.

Lemma A_paren ts t : Fx ts t -> A (lp_t :: ts ++ [rp_t]) t.
Proof.
  intros [_ HF]. split; [exists lp_t, (ts ++ [rp_t]); repeat split; reflexivity|].
  intros rest _. autorewrite with flat. apply conv_S. cbn [sx_atom lp_t]. change (str_eqb p_lp p_lp) with true. cbn iota.
  eapply conv_bind; [apply (HF _ (stop_rp rest))|]. apply conv_ret.
Qed.

Lemma C_unary (s : str) ts t : (s = p_minus \/ s = p_plus) -> C ts t -> C (SPunct s :: ts) (XUn s t).
Proof.
  intros Hs [_ HC]. split; [exists (SPunct s), ts; split; [reflexivity|destruct Hs; subst; reflexivity]|].
  intros rest minp Hnb. apply conv_S. cbn [sx_prefix app].
  assert (Hn : is_w k_NOT (SPunct s) = false) by reflexivity. rewrite Hn.
  assert (Hsg : is_p p_minus (SPunct s) || is_p p_plus (SPunct s) = true) by (destruct Hs; subst; reflexivity). rewrite Hsg.
  eapply conv_bind; [apply (HC rest 8 Hnb)|]. apply conv_ret.
Qed.

Lemma C_index tx x ti i : A tx x -> Fx ti i -> C (tx ++ lb_t :: ti ++ [rb_t]) (XIndex x i).
Proof.
  intros [(t0 & r0 & -> & H1 & H2 & H3 & H4) HA] [_ HF]. split; [exists t0, (r0 ++ lb_t :: ti ++ [rb_t]); auto|].
  intros rest minp Hnb. autorewrite with flat. apply conv_S. cbn [sx_prefix]. rewrite H1, H2, H3. cbn [orb].
  eapply conv_bind; [apply (HA (lb_t :: ti ++ rb_t :: rest)); repeat split; reflexivity|].
  apply conv_S. cbn [sx_postfix lb_t]. change (is_p p_lb (SPunct p_lb)) with true. cbn iota.
  eapply conv_bind; [apply (HF _ (stop_rb rest))|]. cbn beta iota. change (is_p p_rb rb_t) with true. cbn iota.
  apply postfix_stop, Hnb.
Qed.

Fixpoint join_toks (tl : list (list stok)) : list stok :=
  match tl with
  | [] => []
  | [t] => t
  | t :: r => t ++ comma_t :: join_toks r
  end.

Lemma join_toks_cons t t2 r : join_toks (t :: t2 :: r) = t ++ comma_t :: join_toks (t2 :: r).
Proof. reflexivity. Qed.

Lemma args_read : forall vs tl, Forall2 (fun v t => Fx t v) vs tl -> vs <> [] -> forall rest,
  Conv (fun f => sx_args f (join_toks tl ++ rp_t :: rest)) (vs, rest).
Proof.
  induction 1 as [|v ts vs tl [(t0 & r0 & -> & Hnrp) HF] Hr IH]; intros Hne rest; [congruence|].
  apply conv_S. destruct Hr as [|v2 ts2 vs tl _ _].
  - cbn [join_toks sx_args app]. rewrite Hnrp.
    eapply conv_bind; [apply (HF _ (stop_rp rest))|]. cbn beta iota. change (is_p p_rp rp_t) with true. apply conv_ret.
  - rewrite join_toks_cons. autorewrite with flat. cbn [sx_args]. rewrite Hnrp.
    eapply conv_bind; [apply (HF (comma_t :: join_toks (ts2 :: tl) ++ rp_t :: rest) (stop_comma _))|]. cbn beta iota.
    change (is_p p_rp comma_t) with false. change (is_p p_comma comma_t) with true. cbn iota.
    eapply conv_bind; [apply IH; discriminate|]. apply conv_ret.
Qed.

Lemma args_none rest : Conv (fun f => sx_args f (rp_t :: rest)) ([], rest).
Proof. apply conv_S. cbn [sx_args]. change (is_p p_rp rp_t) with true. apply conv_ret. Qed.

Lemma Fx_not_star t0 r0 t : Fx (t0 :: r0) t -> is_p p_star t0 = false.
Proof.
  intros [_ HF]. destruct (is_p p_star t0) eqn:Est; [exfalso|reflexivity].
  destruct t0 as [s|s|s|s|s|s]; try discriminate Est. apply str_eqb_eq in Est. subst s.
  destruct (conv_some _ _ (HF [] I)) as ([|[|[|f]]] & Hf); discriminate Hf.
Qed.

Lemma A_call w tl vs : plain_word w -> Forall2 (fun v t => Fx t v) vs tl -> vs <> [] -> A (SWord w :: lp_t :: join_toks tl ++ [rp_t]) (XCall w vs).
Proof.
  intros [H1 H2] Hall Hne. split; [exists (SWord w), (lp_t :: join_toks tl ++ [rp_t]); repeat split; try reflexivity; exact H1|].
  intros rest Hnf. autorewrite with flat.
  assert (Hcall : Conv (fun f => sx_call f w (join_toks tl ++ rp_t :: rest)) (XCall w vs, rest)).
  { apply conv_S. cbn [sx_call]. eapply conv_bind; [apply (args_read vs tl Hall Hne rest)|].
    destruct Hall; [congruence|apply conv_ret]. }
  (* so this is not the call of a function on a lone star *)
  assert (Hhd : exists t0 r, join_toks tl ++ rp_t :: rest = t0 :: r /\ is_p p_star t0 = false).
  { destruct Hall as [|v ts vs tl HF Hr]; [congruence|]. pose proof HF as [(t0 & r0 & -> & _) _]. exists t0.
    destruct Hr; [cbn [join_toks]|rewrite join_toks_cons]; autorewrite with flat; eexists; (split; [reflexivity|exact (Fx_not_star _ _ _ HF)]). }
  destruct Hhd as (t0 & r & E & Hst). rewrite E in *.
  apply conv_S. cbn [sx_atom]. rewrite H2. change (is_p p_lp lp_t) with true. cbn iota.
  destruct r as [|t1 r]; [exact Hcall|]. rewrite Hst. exact Hcall.
Qed.

Lemma A_call0 w : plain_word w -> A [SWord w; lp_t; rp_t] (XCall w []).
Proof.
  intros [H1 H2]. split; [exists (SWord w), [lp_t; rp_t]; repeat split; try reflexivity; exact H1|].
  intros rest Hnf.
  assert (Hcall : Conv (fun f => sx_call f w (rp_t :: rest)) (XCall w [], rest)).
  { apply conv_S. cbn [sx_call]. eapply conv_bind; [apply args_none|]. cbn beta iota.
    destruct rest as [|fl [|lp [|wh r1]]]; try apply conv_ret.
    destruct Hnf as (_ & Hfl & _). rewrite Hfl, Bool.andb_false_r. apply conv_ret. }
  apply conv_S. cbn [sx_atom app]. rewrite H2. change (is_p p_lp lp_t) with true. cbn iota.
  destruct rest as [|t1 r1]; [exact Hcall|]. change (is_p p_star rp_t) with false. exact Hcall.
Qed.

Lemma A_countif tc c : Fx tc c ->
  A (SWord k_count :: lp_t :: rp_t :: SWord k_FILTER :: lp_t :: SWord k_WHERE :: tc ++ [rp_t]) (XCountIf c).
Proof.
  intros [_ HF]. split; [eexists _, _; repeat split; reflexivity|].
  intros rest _. autorewrite with flat. apply conv_S. cbn [sx_atom].
  change (str_eqb (map upper_c k_count) k_CASE) with false. cbn iota.
  change (is_p p_lp lp_t) with true. cbn iota. change (is_p p_star rp_t) with false. cbn [andb].
  apply conv_S. cbn [sx_call]. eapply conv_bind; [apply args_none|]. cbn beta iota.
  change (str_eqb k_count k_count && is_w k_FILTER (SWord k_FILTER) && is_p p_lp lp_t && is_w k_WHERE (SWord k_WHERE)) with true. cbn iota.
  eapply conv_bind; [apply (HF _ (stop_rp rest))|]. apply conv_ret.
Qed.

Lemma stop_then r : stop (SWord k_THEN :: r). Proof. reflexivity. Qed.
Lemma stop_else r : stop (SWord k_ELSE :: r). Proof. reflexivity. Qed.
Lemma stop_end r : stop (SWord k_END :: r). Proof. reflexivity. Qed.

Lemma A_case tc c tt t te e : Fx tc c -> Fx tt t -> Fx te e ->
  A (SWord k_CASE :: SWord k_WHEN :: tc ++ SWord k_THEN :: tt ++ SWord k_ELSE :: te ++ [SWord k_END]) (XCase c t e).
Proof.
  intros [_ H1] [_ H2] [_ H3]. split; [eexists _, _; repeat split; reflexivity|].
  intros rest _. autorewrite with flat. apply conv_S. cbn [sx_atom].
  change (str_eqb (map upper_c k_CASE) k_CASE) with true. cbn iota.
  change (is_w k_WHEN (SWord k_WHEN)) with true. cbn iota.
  eapply conv_bind; [apply (H1 _ (stop_then _))|]. cbn beta iota. change (is_w k_THEN (SWord k_THEN)) with true. cbn iota.
  eapply conv_bind; [apply (H2 _ (stop_else _))|]. cbn beta iota. change (is_w k_ELSE (SWord k_ELSE)) with true. cbn iota.
  eapply conv_bind; [apply (H3 _ (stop_end rest))|]. apply conv_ret.
Qed.

Lemma Fx_loop tx x more t : C tx x ->
  (forall rest, stop rest -> nb (more ++ rest) /\ Conv (fun f => sx_loop f 0 x (more ++ rest)) (t, rest)) ->
  Fx (tx ++ more) t.
Proof.
  intros [(t0 & r0 & -> & Hn0) HC] Hl. split; [exists t0, (r0 ++ more); auto|]. intros rest Hs.
  destruct (Hl rest Hs) as [Hnb Hloop]. rewrite <- app_assoc. apply conv_S. cbn [sx].
  eapply conv_bind; [apply (HC _ 0 Hnb)|exact Hloop].
Qed.

Definition plain_tok (t : stok) : bool :=
  negb (is_w k_IS t) && negb (is_w k_IN t) && negb (is_p p_lp t) && negb (is_w k_FILTER t) && negb (is_p p_dot t) && negb (is_p p_lb t).

Lemma bin_level_plain tok l : bin_level tok = Some l -> plain_tok tok = true.
Proof.
  assert (Hin : forall p ps, existsb (str_eqb p) ps = true -> forallb (fun q => plain_tok (SPunct q)) ps = true -> plain_tok (SPunct p) = true).
  { intros p ps H Hall. apply existsb_exists in H as (q & Hq & E). apply str_eqb_eq in E. subst q. rewrite forallb_forall in Hall. exact (Hall p Hq). }
  destruct tok as [ | | |w|p| ]; cbn [bin_level]; try discriminate; intros H.
  - unfold plain_tok, is_w, is_p.
    destruct (str_eqb (map upper_c w) k_OR) eqn:E1; [apply str_eqb_eq in E1; rewrite E1; reflexivity|].
    destruct (str_eqb (map upper_c w) k_AND) eqn:E2; [apply str_eqb_eq in E2; rewrite E2; reflexivity|discriminate].
  - destruct (existsb _ _) eqn:E1 in H; [exact (Hin _ _ E1 eq_refl)|].
    destruct (str_eqb p (L "||")) eqn:E2; [apply str_eqb_eq in E2; subst p; reflexivity|].
    destruct (existsb _ _) eqn:E3 in H; [exact (Hin _ _ E3 eq_refl)|].
    destruct (existsb _ _) eqn:E4 in H; [exact (Hin _ _ E4 eq_refl)|discriminate].
Qed.

Lemma plain_tok_facts t : plain_tok t = true ->
  is_w k_IS t = false /\ is_w k_IN t = false /\ is_p p_lp t = false /\ is_w k_FILTER t = false /\ is_p p_dot t = false /\ is_p p_lb t = false.
Proof.
  unfold plain_tok. intros H. repeat (apply andb_prop in H as [H ?]).
  repeat match goal with Hn : negb _ = true |- _ => apply Bool.negb_true_iff in Hn end. repeat split; assumption.
Qed.

Lemma Fx_bin tx x ty y op lvl name : C tx x -> C ty y -> bin_level op = Some (lvl, name) -> Fx (tx ++ op :: ty) (XBin name x y).
Proof.
  intros HCx HCy Hlvl. apply (Fx_loop tx x); [exact HCx|]. intros rest Hs.
  destruct (plain_tok_facts _ (bin_level_plain _ _ Hlvl)) as (Ho1 & Ho2 & Ho3 & Ho4 & Ho5 & Ho6).
  split; [cbn; auto|]. cbn [app]. apply conv_S. cbn [sx_loop]. rewrite Ho1, Ho2, Hlvl. cbn [Nat.leb].
  eapply conv_bind; [apply (C_E ty y HCy rest (S lvl) Hs)|]. apply loop_stop, Hs.
Qed.

Lemma Fx_not tx x : C tx x -> Fx (SWord k_NOT :: tx) (XNot x).
Proof.
  intros HC. split; [eexists _, _; split; reflexivity|]. intros rest Hs.
  apply conv_S. cbn [sx]. apply (conv_bind _ (XNot x, rest)); [|apply loop_stop, Hs].
  apply conv_S. cbn [sx_prefix app]. change (is_w k_NOT (SWord k_NOT)) with true. cbn iota. cbn [Nat.leb].
  eapply conv_bind; [apply (C_E tx x HC rest 3 Hs)|]. apply conv_ret.
Qed.

Lemma Fx_isnull (neg : bool) tx x : C tx x ->
  Fx (tx ++ SWord k_IS :: (if neg then [SWord k_NOT; SWord k_NULL] else [SWord k_NULL])) (XIsNull neg x).
Proof.
  intros HC. apply (Fx_loop tx x); [exact HC|]. intros rest Hs. split; [cbn; auto|].
  cbn [app]. apply conv_S. cbn [sx_loop]. change (is_w k_IS (SWord k_IS)) with true. cbn iota. cbn [Nat.leb].
  destruct neg; cbn [app].
  - change (is_w k_NULL (SWord k_NOT)) with false. change (is_w k_NOT (SWord k_NOT)) with true. cbn iota.
    change (is_w k_NULL (SWord k_NULL)) with true. cbn iota. apply loop_stop, Hs.
  - change (is_w k_NULL (SWord k_NULL)) with true. cbn iota. apply loop_stop, Hs.
Qed.

Lemma Fx_in tx x tl vs : C tx x -> Forall2 (fun v t => Fx t v) vs tl -> vs <> [] ->
  Fx (tx ++ SWord k_IN :: lp_t :: join_toks tl ++ [rp_t]) (XIn x vs).
Proof.
  intros HC Hall Hne. apply (Fx_loop tx x); [exact HC|]. intros rest Hs. split; [cbn; auto|].
  autorewrite with flat. apply conv_S. cbn [sx_loop]. change (is_w k_IS (SWord k_IN)) with false. change (is_w k_IN (SWord k_IN)) with true.
  cbn iota. cbn [Nat.leb]. change (is_p p_lp lp_t) with true. cbn iota.
  eapply conv_bind; [apply (args_read vs tl Hall Hne rest)|].
  destruct Hall; [congruence|]. apply loop_stop, Hs.
Qed.

Definition cat_t := SPunct (L "||").
Definition cats (tbs : list (list stok)) : list stok := flat_map (fun tb => cat_t :: tb) tbs.

Lemma cats_nb tbs rest : stop rest -> nb (cats tbs ++ rest).
Proof. intros Hs. destruct tbs; cbn [cats flat_map app]; [apply stop_nb; exact Hs|cbn; auto]. Qed.

(** || has level 5 *)
Lemma cats_inner tbs rest b : stop rest -> Conv (fun f => sx_loop f 6 b (cats tbs ++ rest)) (b, cats tbs ++ rest).
Proof.
  intros Hs. destruct tbs as [|tb tbs]; [apply loop_stop, Hs|]. apply conv_S. cbn [sx_loop cats flat_map app].
  change (is_w k_IS cat_t) with false. change (is_w k_IN cat_t) with false. cbn iota.
  change (bin_level cat_t) with (Some (5, L "||")). apply conv_ret.
Qed.

Lemma chain_loop : forall tbs bs, Forall2 C tbs bs -> forall acc rest, stop rest ->
  Conv (fun f => sx_loop f 0 acc (cats tbs ++ rest)) (fold_left (fun a b => XBin (L "||") a b) bs acc, rest).
Proof.
  induction 1 as [|tb b tbs bs [_ HC] Hr IH]; intros acc rest Hs; cbn [cats flat_map fold_left app]; [apply loop_stop, Hs|].
  fold (cats tbs). autorewrite with flat. apply conv_S. cbn [sx_loop].
  change (is_w k_IS cat_t) with false. change (is_w k_IN cat_t) with false. cbn iota.
  change (bin_level cat_t) with (Some (5, L "||")). cbn iota. cbn [Nat.leb].
  apply (conv_bind _ (b, cats tbs ++ rest)); [|apply IH, Hs].
  apply conv_S. cbn [sx]. eapply conv_bind; [apply (HC _ 6 (cats_nb tbs rest Hs))|]. apply cats_inner, Hs.
Qed.

Lemma Fx_chain ta a tbs bs : C ta a -> Forall2 C tbs bs ->
  Fx (ta ++ cats tbs) (fold_left (fun x y => XBin (L "||") x y) bs a).
Proof. intros HC Hall. apply (Fx_loop ta a); [exact HC|]. intros rest Hs. split; [apply cats_nb, Hs|apply chain_loop; assumption]. Qed.

(** raw text and holes (parameters) have no tokens *)
Definition ptok (p : piece) : option (list stok) :=
  match p with
  | PLit s => sql_lex ClickHouse s
  | PIdent n => Some [SQuoted n]
  | PStr v => Some [SString v]
  | PNum v => Some [SNumber v]
  | PFunc n => Some [SWord n]
  | PRaw _ | PHole _ => None
  end.

Fixpoint ptoks (ps : list piece) : option (list stok) :=
  match ps with
  | [] => Some []
  | p :: r => match ptok p, ptoks r with Some a, Some b => Some (a ++ b) | _, _ => None end
  end.

Lemma ptoks_app a b ta tb : ptoks a = Some ta -> ptoks b = Some tb -> ptoks (a ++ b) = Some (ta ++ tb).
Proof.
  revert ta. induction a as [|p r IH]; intros ta Ha Hb; cbn [ptoks app] in *.
  - injection Ha as <-. exact Hb.
  - destruct (ptok p) as [tp|]; [|discriminate]. destruct (ptoks r) as [tr|] eqn:Er; [|discriminate].
    injection Ha as <-. rewrite (IH tr eq_refl Hb). rewrite app_assoc. reflexivity.
Qed.

Lemma ptoks_cons_lit s ts b tb : sql_lex ClickHouse s = Some ts -> ptoks b = Some tb -> ptoks (PLit s :: b) = Some (ts ++ tb).
Proof. intros H1 H2. cbn [ptoks ptok]. rewrite H1, H2. reflexivity. Qed.

(** The trees the writer is followed on: what the parser builds ([parsed_wfr] below), provided no
    pass-through function is called NOT or CASE ([plain_word]; finding F1). *)
Fixpoint wfr (e : expr) : Prop :=
  match e with
  | EQual ps => ps <> []
  | ELit _ k _ => k = KNumber \/ k = KString
  | EUnary _ op x => (op = KPlus \/ op = KMinus) /\ wfr x
  | EBin x _ op y => binop_handled op = true /\ op <> KIn /\ wfr x /\ wfr y
  | EIn x _ _ vs _ => wfr x /\ vs <> [] /\ (fix all (l : list expr) : Prop := match l with [] => True | a :: r => wfr a /\ all r end) vs
  | EParen _ x _ => wfr x
  | ECall f _ args _ =>
    (known_func (iname f) = None -> plain_word (iname f)) /\
    (fix all (l : list expr) : Prop := match l with [] => True | a :: r => wfr a /\ all r end) args
  | EIndex x _ i _ => wfr x /\ wfr i
  end.

Lemma wfr_all l : (fix all (l : list expr) : Prop := match l with [] => True | a :: r => wfr a /\ all r end) l <-> Forall wfr l.
Proof. apply (fix_all_Forall wfr). Qed.

(** the class that the writer's wrap mode promises to the context *)
Definition Shape (w : wrap) (ts : list stok) (t : sexpr) : Prop :=
  match w with WOperand => A ts t | WMaybe => C ts t | WPlain => Fx ts t end.

Lemma A_Fx ts t : A ts t -> Fx ts t.
Proof. intros H. apply C_Fx, A_C, H. Qed.

Lemma shape_wrap w (complex_e unary_e : bool) tsb t :
  Fx tsb t -> (complex_e = false -> C tsb t) -> (complex_e = false -> unary_e = false -> A tsb t) ->
  let wrapped := match w with WPlain => false | WMaybe => complex_e | WOperand => unary_e || complex_e end in
  Shape w (if wrapped then lp_t :: tsb ++ [rp_t] else tsb) t.
Proof.
  intros HF HC HA. destruct w; cbn.
  - exact HF.
  - destruct complex_e; [apply A_C, A_paren; exact HF|apply HC; reflexivity].
  - destruct unary_e, complex_e; cbn; try (apply A_paren; exact HF). apply HA; reflexivity.
Qed.

Lemma lex_lp : sql_lex ClickHouse (L "(") = Some [lp_t]. Proof. reflexivity. Qed.
Lemma lex_rp : sql_lex ClickHouse (L ")") = Some [rp_t]. Proof. reflexivity. Qed.

Lemma ptoks_paren b tb : ptoks b = Some tb -> ptoks (lit "(" ++ b ++ lit ")") = Some (lp_t :: tb ++ [rp_t]).
Proof.
  intros H. change (lit "(" ++ b ++ lit ")") with (PLit (L "(") :: b ++ lit ")").
  rewrite (ptoks_cons_lit (L "(") [lp_t] (b ++ lit ")") (tb ++ [rp_t]) lex_lp); [reflexivity|].
  apply ptoks_app; [exact H|reflexivity].
Qed.

Lemma assoc_str_In {X} (l : list (str * X)) n v : assoc_str l n = Some v -> In v (map snd l).
Proof.
  induction l as [|[k x] r IH]; cbn [assoc_str]; [discriminate|].
  destruct (str_eqb k n); [intros [= <-]; left; reflexivity|intros H; right; apply IH; exact H].
Qed.

Lemma builtin_word n w : assoc_str builtin_idents n = Some w -> sql_lex ClickHouse w = Some [SWord w] /\ plain_word w.
Proof. intros H. apply assoc_str_In in H. repeat destruct H as [<-|H]; [..|destruct H]; split; vm_compute; auto. Qed.

Lemma binop_tok op s : binop_sql op = Some s ->
  exists tok lvl, sql_lex ClickHouse s = Some [tok] /\ bin_level tok = Some (lvl, s) /\ is_w k_IS tok = false /\ is_w k_IN tok = false
    /\ is_p p_lp tok = false /\ is_w k_FILTER tok = false /\ is_p p_dot tok = false /\ is_p p_lb tok = false.
Proof.
  destruct op; cbn [binop_sql]; try discriminate; intros [= <-]; eexists _, _; vm_compute; repeat split; reflexivity.
Qed.

Lemma join_pieces_toks : forall pl tl, Forall2 (fun p t => ptoks p = Some t) pl tl ->
  ptoks (join_pieces (lit ", ") pl) = Some (join_toks tl).
Proof.
  induction 1 as [|p t pl tl Hp Hr IH]; [reflexivity|].
  destruct pl as [|p2 pl']; inversion Hr; subst; cbn [join_pieces join_toks]; [exact Hp|].
  apply ptoks_app; [exact Hp|]. change (lit ", " ++ join_pieces (lit ", ") (p2 :: pl')) with (PLit (L ", ") :: join_pieces (lit ", ") (p2 :: pl')).
  apply (ptoks_cons_lit (L ", ") [comma_t]); [reflexivity|exact IH].
Qed.

(** rewrite set [ptoks]: [ptoks] over [::] and [++] *)
Definition oapp (a b : option (list stok)) : option (list stok) :=
  match a, b with Some x, Some y => Some (x ++ y) | _, _ => None end.

Lemma ptoks_cons p r : ptoks (p :: r) = oapp (ptok p) (ptoks r).
Proof. reflexivity. Qed.

Lemma ptoks_app_eq a b : ptoks (a ++ b) = oapp (ptoks a) (ptoks b).
Proof.
  induction a as [|p r IH]; cbn [app]; [destruct (ptoks b); reflexivity|].
  rewrite !ptoks_cons, IH. destruct (ptok p), (ptoks r), (ptoks b); try reflexivity. cbn [oapp]. rewrite app_assoc. reflexivity.
Qed.
#[export] Hint Rewrite ptoks_cons ptoks_app_eq : ptoks.

Definition lexed (s : str) : list stok := match sql_lex ClickHouse s with Some ts => ts | None => [] end.

Definition tmpl_lexes (t : list tpart) : bool :=
  forallb (fun p => match p with
                    | T_Lit s | T_Rest _ s _ => match sql_lex ClickHouse s with Some _ => true | None => false end
                    | T_Arg _ _ => true
                    end) t.

Fixpoint ttoks (t : list tpart) (tas : list (list stok)) : list stok :=
  match t with
  | [] => []
  | T_Lit s :: r => lexed s ++ ttoks r tas
  | T_Arg _ i :: r => nth i tas [] ++ ttoks r tas
  | T_Rest i sep _ :: r => flat_map (fun ta => lexed sep ++ ta) (skipn i tas) ++ ttoks r tas
  end.

Lemma tinst_toks pas tas : Forall2 (fun pa ta => ptoks pa = Some ta) pas tas ->
  forall t, tmpl_lexes t = true -> ptoks (tinst t pas) = Some (ttoks t tas).
Proof.
  intros H2. induction t as [|p r IH]; intros Hl; [reflexivity|]. cbn [tmpl_lexes forallb] in Hl. apply andb_prop in Hl as [Hp Hl].
  specialize (IH Hl). destruct p as [s|mp i|i sep mp]; cbn [tinst ttoks].
  - unfold lexed. cbn [ptoks ptok]. destruct (sql_lex ClickHouse s); [|discriminate]. rewrite IH. reflexivity.
  - apply ptoks_app; [|exact IH]. exact (Forall2_nth _ [] [] _ _ i H2 eq_refl).
  - apply ptoks_app; [|exact IH]. unfold lexed. destruct (sql_lex ClickHouse sep) as [ts|] eqn:Es; [|discriminate].
    induction (Forall2_skipn _ pas tas i H2) as [|pa ta l l' Ha _ IHl]; [reflexivity|]. cbn [flat_map].
    apply (ptoks_app (PLit sep :: pa)); [|exact IHl]. cbn [ptoks ptok]. rewrite Es, Ha. reflexivity.
Qed.

(** the tree [trans] intends, by operator ([trans_bin]) *)
Definition bin_tree (peq : bool) (op : kind) (x y : sexpr) : sexpr :=
  match op with
  | KEq => if peq then XBin w_eq x y else XCall w_coalesce [XBin w_eq x y; XWord w_FALSE]
  | KNE => XCall w_coalesce [XBin w_ne x y; XWord w_FALSE]
  | KCaseInsensitiveEq => XBin w_eq (XCall w_lower [x]) (XCall w_lower [y])
  | KCaseInsensitiveNE => XBin w_ne (XCall w_lower [x]) (XCall w_lower [y])
  | _ => match binop_sql op with Some sqlop => XBin sqlop x y | None => XWord w_NULL end
  end.

Lemma ptoks_bin_out t px py a m z tx ty :
  ptoks (bt_pre t) = Some a -> ptoks (bt_mid t) = Some m -> ptoks (bt_post t) = Some z -> ptoks px = Some tx -> ptoks py = Some ty ->
  ptoks (bin_out t px py) = Some (a ++ tx ++ m ++ ty ++ z).
Proof. intros Ha Hm Hz Hx Hy. rewrite bin_out_eq. repeat (apply ptoks_app; [assumption|]). exact Hz. Qed.

Lemma coalesce_reads ts x : Fx ts x -> A (SWord w_coalesce :: lp_t :: join_toks [ts; [SWord w_FALSE]] ++ [rp_t]) (XCall w_coalesce [x; XWord w_FALSE]).
Proof.
  intros H. apply A_call; [split; reflexivity| |discriminate].
  constructor; [exact H|]. constructor; [apply A_Fx, A_word; split; reflexivity|constructor].
Qed.

Lemma lower_reads ts x : Fx ts x -> C (SWord w_lower :: lp_t :: join_toks [ts] ++ [rp_t]) (XCall w_lower [x]).
Proof. intros H. apply A_C, A_call; [split; reflexivity|constructor; [exact H|constructor]|discriminate]. Qed.

Lemma bin_reads peq op t px py tx ty x y :
  bin_template peq op = Some t -> ptoks px = Some tx -> ptoks py = Some ty ->
  Shape (bt_wrap t) tx x -> Shape (bt_wrap t) ty y ->
  exists ts, ptoks (bin_out t px py) = Some ts /\ Fx ts (bin_tree peq op x y).
Proof.
  intros Et Hpx Hpy.
  (* 32: space, 41: closing parenthesis *)
  assert (Htab : forall mid s tok lvl, t = mkBin WMaybe [] mid [] -> ptoks mid = Some [tok] -> bin_level tok = Some (lvl, s) ->
            C tx x -> C ty y -> exists ts, ptoks (bin_out t px py) = Some ts /\ Fx ts (XBin s x y)).
  { intros mid s tok lvl -> Hlex Hlvl Hx Hy. exists (tx ++ tok :: ty ++ []). split.
    - apply (ptoks_bin_out _ px py [] [tok] []); try assumption; reflexivity.
    - rewrite app_nil_r. eapply Fx_bin; eassumption. }
  assert (Hcoal : forall s, t = mkBin WMaybe (lit "coalesce(") [PLit (32%N :: s ++ [32%N])] (lit ", FALSE)") ->
            sql_lex ClickHouse (32%N :: s ++ [32%N]) = Some [SPunct s] -> bin_level (SPunct s) = Some (4, s) ->
            C tx x -> C ty y -> exists ts, ptoks (bin_out t px py) = Some ts /\ Fx ts (XCall w_coalesce [XBin s x y; XWord w_FALSE])).
  { intros s -> Hlex Hlvl Hx Hy. eexists. split.
    - apply (ptoks_bin_out _ px py [SWord w_coalesce; lp_t] [SPunct s] [comma_t; SWord w_FALSE; rp_t] tx ty); try assumption; try reflexivity.
      cbn [bt_mid ptoks ptok]. rewrite Hlex. reflexivity.
    - apply A_Fx. replace (_ ++ _) with (SWord w_coalesce :: lp_t :: join_toks [tx ++ SPunct s :: ty; [SWord w_FALSE]] ++ [rp_t]) by (cbn [join_toks]; autorewrite with flat; reflexivity).
      apply coalesce_reads. eapply Fx_bin; eassumption. }
  assert (Hlower : forall s, t = mkBin WPlain (lit "lower(") [PLit (41%N :: 32%N :: s ++ L " lower(")] (lit ")") ->
            sql_lex ClickHouse (41%N :: 32%N :: s ++ L " lower(") = Some [rp_t; SPunct s; SWord w_lower; lp_t] -> bin_level (SPunct s) = Some (4, s) ->
            Fx tx x -> Fx ty y -> exists ts, ptoks (bin_out t px py) = Some ts /\ Fx ts (XBin s (XCall w_lower [x]) (XCall w_lower [y]))).
  { intros s -> Hlex Hlvl Hx Hy. eexists. split.
    - apply (ptoks_bin_out _ px py [SWord w_lower; lp_t] [rp_t; SPunct s; SWord w_lower; lp_t] [rp_t] tx ty); try assumption; try reflexivity.
      cbn [bt_mid ptoks ptok]. rewrite Hlex. reflexivity.
    - replace (_ ++ _) with ((SWord w_lower :: lp_t :: join_toks [tx] ++ [rp_t]) ++ SPunct s :: (SWord w_lower :: lp_t :: join_toks [ty] ++ [rp_t])) by (cbn [join_toks]; autorewrite with flat; reflexivity).
      eapply Fx_bin; [apply lower_reads; exact Hx|apply lower_reads; exact Hy|exact Hlvl]. }
  destruct op; cbn [bin_template binop_sql option_map] in Et; try discriminate Et; cbn [bin_tree binop_sql].
  (* all but ==, !=, =~, !~ *)
  all: try (injection Et as <-; cbn [bt_wrap Shape]; eapply Htab; reflexivity).
  - destruct peq; injection Et as <-; cbn [bt_wrap Shape].
    + eapply (Htab _ w_eq (SPunct w_eq) 4); reflexivity.
    + apply (Hcoal w_eq); reflexivity.
  - injection Et as <-. apply (Hcoal w_ne); reflexivity.
  - injection Et as <-. apply (Hlower w_eq); reflexivity.
  - injection Et as <-. apply (Hlower w_ne); reflexivity.
Qed.

Definition body_shape (e : expr) : wrap :=
  if complex e then WPlain else match e with EUnary _ _ _ => WMaybe | _ => WOperand end.

Lemma A_shape w ts t : A ts t -> Shape w ts t.
Proof. destruct w; [apply A_Fx|apply A_C|exact (fun H => H)]. Qed.

Lemma shape_Fx w ts t : Shape w ts t -> Fx ts t.
Proof. destruct w; [exact (fun H => H)|apply C_Fx|apply A_Fx]. Qed.

Lemma unwrapped_shape w e ts t : needs_wrap w e = false -> Shape (body_shape e) ts t -> Shape w ts t.
Proof.
  unfold body_shape. destruct w; cbn [needs_wrap]; intros E.
  - apply shape_Fx.
  - rewrite E. destruct e; try exact (fun H => H); apply A_C.
  - destruct e; try discriminate E; rewrite E; exact (fun H => H).
Qed.

Lemma wrap_shape w e (body : res (list piece)) ps t :
  wrapped (needs_wrap w e) body = Ok ps ->
  (forall b, body = Ok b -> exists tsb, ptoks b = Some tsb /\ Shape (body_shape e) tsb t) ->
  exists ts, ptoks ps = Some ts /\ Shape w ts t.
Proof.
  unfold wrapped. intros H Hb. destruct (needs_wrap w e) eqn:Ew.
  - apply bind_ok in H as (b & Hbody & [= <-]). destruct (Hb b Hbody) as (tsb & Hp & Hs).
    exists (lp_t :: tsb ++ [rp_t]). split; [apply ptoks_paren; exact Hp|]. apply A_shape, A_paren. exact (shape_Fx _ _ _ Hs).
  - destruct (Hb ps H) as (tsb & Hp & Hs). exists tsb. split; [exact Hp|]. exact (unwrapped_shape _ _ _ _ Ew Hs).
Qed.

(** the tree [trans] intends, by writer ([trans_call]) *)
Definition call_tree (wr : fwriter) (xs : list sexpr) : sexpr :=
  match wr, xs with
  | W_writeCountFunction, _ => XCall w_count []
  | W_writeNowFunction, _ => XWord w_now
  | W_writeNotFunction, [a] => XNot a
  | W_writeIsNullFunction, [a] => XIsNull false a
  | W_writeIsNotNullFunction, [a] => XIsNull true a
  | W_writeCountIfFunction, [a] => XCountIf a
  | W_writeToLowerFunction, [a] => XCall w_LOWER [a]
  | W_writeToUpperFunction, [a] => XCall w_UPPER [a]
  | W_writeIfFunction, [c; t; e] => XCase (XCall w_coalesce [c; XWord w_FALSE]) t e
  | W_writeStrcatFunction, a :: r => fold_left (fun acc b => XBin w_concat acc b) r a
  | _, _ => XWord w_NULL
  end.

Lemma trans_bin f jm x s op y : trans f jm (EBin x s op y) =
  bin_tree (jm && ((mentions w_left x || mentions w_left y) && (mentions w_right x || mentions w_right y))) op (trans f jm x) (trans f jm y).
Proof. destruct op; reflexivity. Qed.

Lemma trans_call f jm fn lp args rp : trans f jm (ECall fn lp args rp) =
  match known_func (iname fn) with
  | Some (wr, _) => call_tree wr (map (trans f jm) args)
  | None => XCall (iname fn) (map (trans f jm) args)
  end.
Proof. cbn [trans]. destruct (known_func (iname fn)) as [[[] np]|]; reflexivity. Qed.

Lemma known_func_cases n wr np : known_func n = Some (wr, np) -> In (wr, np) (map snd known_funcs).
Proof. apply assoc_str_In. Qed.

(** which rewrites declare needsParens *)
Definition writer_np (wr : fwriter) : bool :=
  match wr with W_writeCountFunction | W_writeCountIfFunction | W_writeNowFunction => false | _ => true end.

Lemma known_func_np n wr np : known_func n = Some (wr, np) -> np = writer_np wr.
Proof.
  assert (Ht : forallb (fun nf => Bool.eqb (snd (snd nf)) (writer_np (fst (snd nf)))) known_funcs = true) by reflexivity.
  intros H. apply known_func_cases, in_map_iff in H as (nf & E & Hin). rewrite forallb_forall in Ht. specialize (Ht nf Hin).
  rewrite E in Ht. apply Bool.eqb_prop in Ht. exact Ht.
Qed.

Lemma body_shape_call f lp args rp : body_shape (ECall f lp args rp) =
  match known_func (iname f) with Some (wr, _) => if writer_np wr then WPlain else WOperand | None => WOperand end.
Proof.
  unfold body_shape. cbn [complex]. destruct (known_func (iname f)) as [[wr np]|] eqn:Ek; [|reflexivity].
  rewrite (known_func_np _ _ _ Ek). destruct (writer_np wr); reflexivity.
Qed.

Lemma templates_lex wr : tmpl_lexes (writer_template wr) = true.
Proof. destruct wr; reflexivity. Qed.

Lemma Forall2_nth_error {X Y} (P : X -> Y -> Prop) d : forall l l', length l = length l' ->
  (forall k y, nth_error l' k = Some y -> P (nth k l d) y) -> Forall2 P l l'.
Proof.
  induction l as [|x l IH]; intros [|y l'] Hlen H; try discriminate Hlen; constructor.
  - exact (H 0 y eq_refl).
  - apply IH; [injection Hlen as E; exact E|]. intros k. exact (H (S k)).
Qed.

Lemma call_reads wr tas xs :
  arity_ok (writer_arity wr) (length xs) = true -> length tas = length xs ->
  (forall k x mp, nth_error xs k = Some x -> arg_use (writer_template wr) k = Some mp -> Shape (wrap_of mp) (nth k tas []) x) ->
  Shape (if writer_np wr then WPlain else WOperand) (ttoks (writer_template wr) tas) (call_tree wr xs).
Proof.
  intros Ea Hlen Hsh. destruct wr; cbn [writer_arity arity_ok] in Ea; cbn [writer_np Shape].
  - destruct xs; [|discriminate Ea]. apply A_call0. split; reflexivity.
  - destruct xs as [|x [|? ?]]; try discriminate Ea. exact (A_countif _ _ (Hsh 0 x false eq_refl eq_refl)).
  - (* CASE WHEN coalesce(c, FALSE) THEN .. *)
    destruct xs as [|x1 [|x2 [|x3 [|? ?]]]]; try discriminate Ea. apply A_Fx.
    refine (eq_rect _ (fun ts => A ts _) (A_case _ _ _ _ _ _ (A_Fx _ _ (coalesce_reads _ _ (Hsh 0 x1 false eq_refl eq_refl)))
                                            (Hsh 1 x2 false eq_refl eq_refl) (Hsh 2 x3 false eq_refl eq_refl)) _ _).
    cbn [join_toks]. autorewrite with flat. reflexivity.
  - destruct xs as [|x [|? ?]]; try discriminate Ea. exact (Fx_isnull true _ _ (Hsh 0 x true eq_refl eq_refl)).
  - destruct xs as [|x [|? ?]]; try discriminate Ea. exact (Fx_isnull false _ _ (Hsh 0 x true eq_refl eq_refl)).
  - destruct xs as [|x [|? ?]]; try discriminate Ea. cbn [writer_template ttoks]. rewrite app_nil_r. exact (Fx_not _ _ (Hsh 0 x true eq_refl eq_refl)).
  - destruct xs; [|discriminate Ea]. apply A_word. split; reflexivity.
  - (* a || b || ..: every argument, as a closed operand *)
    assert (Hall : Forall2 C tas xs).
    { apply (Forall2_nth_error C []); [exact Hlen|]. intros k x Hk. apply (Hsh k x true Hk). destruct k; reflexivity. }
    destruct Hall as [|ta x tl r Hx Hr]; [discriminate Ea|].
    cbn [writer_template ttoks nth skipn]. rewrite app_nil_r. exact (Fx_chain _ _ _ _ Hx Hr).
  - destruct xs as [|x [|? ?]]; try discriminate Ea.
    apply A_Fx, (A_call w_LOWER [_] [_]); [split; reflexivity|constructor; [exact (Hsh 0 x false eq_refl eq_refl)|constructor]|discriminate].
  - destruct xs as [|x [|? ?]]; try discriminate Ea.
    apply A_Fx, (A_call w_UPPER [_] [_]); [split; reflexivity|constructor; [exact (Hsh 0 x false eq_refl eq_refl)|constructor]|discriminate].
Qed.

Lemma seq_map_reads {X} (f : X -> res (list piece)) (P : X -> list stok -> Prop) : forall l pl,
  sequence (map f l) = Ok pl -> (forall x p, In x l -> f x = Ok p -> exists t, ptoks p = Some t /\ P x t) ->
  exists tls, Forall2 (fun p t => ptoks p = Some t) pl tls /\ Forall2 P l tls.
Proof.
  induction l as [|x l IH]; intros pl Hs Hf; cbn [map sequence] in Hs.
  - injection Hs as <-. exists []. split; constructor.
  - apply bind_ok in Hs as (p & Hp & Hs). apply bind_ok in Hs as (tl & Htl & [= <-]).
    destruct (Hf x p (or_introl eq_refl) Hp) as (t & Ht & HP).
    destruct (IH tl Htl (fun y q Hy => Hf y q (or_intror Hy))) as (tls & H1 & H2).
    exists (t :: tls). split; constructor; assumption.
Qed.

Lemma Forall2_map_l {X Y Z} (P : Y -> Z -> Prop) (g : X -> Y) l tls : Forall2 (fun x t => P (g x) t) l tls -> Forall2 P (map g l) tls.
Proof. induction 1; constructor; assumption. Qed.

Lemma Forall2_impl {X Y} (P Q : X -> Y -> Prop) l1 l2 : (forall x y, P x y -> Q x y) -> Forall2 P l1 l2 -> Forall2 Q l1 l2.
Proof. intros H F. induction F; constructor; auto. Qed.

Fixpoint substv (vals : str -> sexpr) (e : sexpr) {struct e} : sexpr :=
  match e with
  | XBound n => vals n
  | XCol _ | XWord _ | XNum _ | XStr _ => e
  | XUn op x => XUn op (substv vals x)
  | XNot x => XNot (substv vals x)
  | XBin op x y => XBin op (substv vals x) (substv vals y)
  | XIsNull n x => XIsNull n (substv vals x)
  | XIn x vs => XIn (substv vals x) (map (substv vals) vs)
  | XIndex x i => XIndex (substv vals x) (substv vals i)
  | XCall f args => XCall f (map (substv vals) args)
  | XCountIf c => XCountIf (substv vals c)
  | XCase c t e' => XCase (substv vals c) (substv vals t) (substv vals e')
  end.

Lemma substv_bin_tree vals peq op x y : substv vals (bin_tree peq op x y) = bin_tree peq op (substv vals x) (substv vals y).
Proof. destruct op, peq; reflexivity. Qed.

Lemma substv_call_tree vals wr xs : substv vals (call_tree wr xs) = call_tree wr (map (substv vals) xs).
Proof.
  destruct wr; try (destruct xs as [|x1 [|x2 [|x3 [|x4 r]]]]; reflexivity).
  destruct xs as [|a bs]; [reflexivity|]. cbn [call_tree map]. revert a.
  induction bs as [|b r IH]; intros a; [reflexivity|]. cbn [fold_left map]. rewrite IH. reflexivity.
Qed.

Section Writer.
Variable c : ctx.
Variable vals : str -> sexpr.
Hypothesis scope_ok : forall n ps, scope_get (c_scope c) n = Some ps -> exists ts, ptoks ps = Some ts /\ A ts (vals n).
Let jm := mode_eqb (c_mode c) ModeJoin.
Let isb (n : str) : bool := match scope_get (c_scope c) n with Some _ => true | None => false end.
Let T (e : expr) : sexpr := substv vals (trans isb jm e).

Lemma T_bin x s op y : T (EBin x s op y) = bin_tree (plain_eq c x y) op (T x) (T y).
Proof. unfold T. rewrite trans_bin. apply substv_bin_tree. Qed.

Lemma T_call f lp args rp : T (ECall f lp args rp) =
  match known_func (iname f) with Some (wr, _) => call_tree wr (map T args) | None => XCall (iname f) (map T args) end.
Proof.
  unfold T. rewrite trans_call.
  destruct (known_func (iname f)) as [[wr np]|]; [rewrite substv_call_tree|cbn [substv]]; rewrite map_map; reflexivity.
Qed.

Lemma write_parts_toks m : forall ps pcs, write_parts m false ps = Ok pcs -> ptoks pcs = Some (dots (map iname ps)).
Proof.
  induction ps as [|p r IH]; intros pcs; cbn [write_parts]; [intros [= <-]; reflexivity|].
  destruct (ident_is_alias p && negb (mode_eqb m ModeJoin)); [discriminate|].
  intros H. apply bind_ok in H as (tl & Htl & [= <-]). cbn [map dots].
  change (lit "." ++ PIdent (iname p) :: tl) with (PLit (L ".") :: PIdent (iname p) :: tl).
  cbn [ptoks ptok]. change (sql_lex ClickHouse (L ".")) with (Some [SPunct p_dot]). rewrite (IH _ Htl). reflexivity.
Qed.

Lemma write_parts_first m p r pcs : write_parts m true (p :: r) = Ok pcs -> ptoks pcs = Some (SQuoted (iname p) :: dots (map iname r)).
Proof.
  cbn [write_parts]. destruct (ident_is_alias p && negb (mode_eqb m ModeJoin)); [discriminate|].
  intros H. apply bind_ok in H as (tl & Htl & [= <-]). cbn [app ptoks ptok]. rewrite (write_parts_toks m _ _ Htl). reflexivity.
Qed.

Lemma qual_body ps w pcs : ps <> [] -> wx c w (EQual ps) = Ok pcs -> exists ts, ptoks pcs = Some ts /\ Shape w ts (T (EQual ps)).
Proof.
  intros Hne H. rewrite wx_qual in H. unfold unbound_qual in H.
  eapply (wrap_shape w (EQual ps)); [rewrite needs_wrap_qual; exact H|]. clear H.
  intros b Hb. change (body_shape (EQual ps)) with WOperand. cbn [Shape].
  assert (Hgen : forall p r, write_parts (c_mode c) true (p :: r) = Ok b ->
            exists tsb, ptoks b = Some tsb /\ A tsb (XCol (map iname (p :: r)))).
  { intros p r Hw. eexists. split; [eapply write_parts_first; exact Hw|apply A_col]. }
  destruct ps as [|p [|p2 r]]; [congruence| |].
  - unfold T. cbn [trans]. destruct (iquoted p) eqn:Eq; cbn [negb andb] in *.
    + cbn [substv]. destruct (mode_eqb (c_mode c) ModeLet); [discriminate|]. apply (Hgen p []). exact Hb.
    + unfold isb. destruct (scope_get (c_scope c) (iname p)) as [sql|] eqn:Es.
      * injection Hb as <-. cbn [substv]. exact (scope_ok _ _ Es).
      * destruct (assoc_str builtin_idents (iname p)) as [sql|] eqn:Eb; cbn [substv].
        { injection Hb as <-. destruct (builtin_word _ _ Eb) as [Hlex Hpw]. exists [SWord sql]. split.
          { cbn [ptoks ptok]. rewrite Hlex. reflexivity. }
          apply A_word. exact Hpw. }
        destruct (mode_eqb (c_mode c) ModeLet); [discriminate|]. apply (Hgen p []). exact Hb.
  - unfold T. cbn [trans substv]. destruct (mode_eqb (c_mode c) ModeLet); [discriminate|]. apply (Hgen p (p2 :: r)). exact Hb.
Qed.

Lemma lit_body sp k v w pcs : (k = KNumber \/ k = KString) -> wx c w (ELit sp k v) = Ok pcs ->
  exists ts, ptoks pcs = Some ts /\ Shape w ts (T (ELit sp k v)).
Proof.
  intros Hk H. rewrite wx_lit in H.
  eapply (wrap_shape w (ELit sp k v)); [rewrite needs_wrap_lit; exact H|]. clear H.
  intros b Hb. destruct Hk as [-> | ->]; injection Hb as <-; unfold T; cbn [trans substv].
  - exists [SNumber v]. split; [reflexivity|apply A_num].
  - exists [SString v]. split; [reflexivity|apply A_str].
Qed.

(** every written argument has the shape its first use in the template asks for *)
Lemma wargs_toks t args : forall i,
  (forall a w pa, In a args -> wx c w a = Ok pa -> exists ta, ptoks pa = Some ta /\ Shape w ta (T a)) ->
  forall pas, Forall2 (fun r pa => r = Ok pa) (wargs c t i args) pas ->
  exists tas, Forall2 (fun pa ta => ptoks pa = Some ta) pas tas /\ length tas = length (map T args) /\
    forall k x mp, nth_error (map T args) k = Some x -> arg_use t (i + k) = Some mp -> Shape (wrap_of mp) (nth k tas []) x.
Proof.
  induction args as [|a r IH]; intros i HI pas H2; cbn [wargs] in H2; inversion H2 as [|? p ? ps Hp Hps]; subst.
  - exists []. repeat split; [constructor|]. intros [|k]; discriminate.
  - destruct (IH (S i) (fun a' w pa Hin => HI a' w pa (or_intror Hin)) ps Hps) as (tas & Htas & Hlen & Hsh).
    rewrite warg_eq in Hp.
    assert (Ha : exists ta, ptoks p = Some ta /\ forall mp, arg_use t i = Some mp -> Shape (wrap_of mp) ta (T a)).
    { destruct (arg_use t i) as [mp|].
      - destruct (HI a _ p (or_introl eq_refl) Hp) as (ta & Hta & Hs). exists ta. split; [exact Hta|]. intros ? [= <-]. exact Hs.
      - injection Hp as <-. exists []. split; [reflexivity|discriminate]. }
    destruct Ha as (ta & Hta & Hs). exists (ta :: tas). split; [constructor; assumption|]. split; [cbn [map length]; rewrite Hlen; reflexivity|].
    intros [|k] x mp; cbn [map nth_error nth].
    + intros [= <-]. rewrite Nat.add_0_r. apply Hs.
    + rewrite Nat.add_succ_r. apply Hsh.
Qed.

Theorem wx_reads : forall e, wfr e -> forall w ps, wx c w e = Ok ps -> exists ts, ptoks ps = Some ts /\ Shape w ts (T e).
Proof.
  induction e using expr_ind'; intros Hwf w pcs Hx.
  - apply qual_body; assumption.
  - cbn [wfr] in Hwf. destruct Hwf as (Hop & Hnin & Hw1 & Hw2).
    rewrite wx_bin in Hx. eapply wrap_shape; [exact Hx|]. clear Hx. intros b Hb.
    destruct (bin_template_handled (plain_eq c e1 e2) op Hop Hnin) as (t & Et). rewrite Et in Hb.
    apply bind_ok in Hb as (px & Hpx & Hb). apply bind_ok in Hb as (py & Hpy & [= <-]).
    destruct (IHe1 Hw1 _ _ Hpx) as (tx & Htx & Hsx). destruct (IHe2 Hw2 _ _ Hpy) as (ty & Hty & Hsy).
    rewrite T_bin. exact (bin_reads _ _ _ _ _ _ _ _ _ Et Htx Hty Hsx Hsy).
  - cbn [wfr] in Hwf. destruct Hwf as (Hop & Hw1).
    rewrite wx_unary in Hx. eapply wrap_shape; [exact Hx|]. clear Hx. intros b Hb.
    apply bind_ok in Hb as (px & Hpx & Hb). destruct (IHe Hw1 WOperand px Hpx) as (tx & Htx & Hsx). cbn [Shape] in Hsx.
    unfold T. cbn [trans substv map].
    set (s := match op with KMinus => w_minus | _ => w_plus end).
    assert (Hs : (s = p_minus \/ s = p_plus) /\ ptoks (sign_text op) = Some [SPunct s]) by (destruct Hop as [-> | ->]; split; auto).
    destruct Hs as (Hs & Hlex). injection Hb as <-.
    exists (SPunct s :: tx). split; [rewrite ptoks_app_eq, Hlex, Htx; reflexivity|]. exact (C_unary s tx _ Hs (A_C _ _ Hsx)).
  - cbn [wfr] in Hwf. destruct Hwf as (Hw1 & Hne & Hall). apply wfr_all in Hall.
    rewrite wx_in in Hx. eapply wrap_shape; [exact Hx|]. clear Hx. intros b Hb.
    apply bind_ok in Hb as (px & Hpx & Hb). apply bind_ok in Hb as (pvs & Hpvs & [= <-]).
    destruct (IHe Hw1 WMaybe px Hpx) as (tx & Htx & Hsx). cbn [Shape] in Hsx.
    destruct (seq_map_reads _ (fun v t => C t (T v)) vs pvs Hpvs) as (tl & Htl & Hsl).
    { intros v p Hin Hp. rewrite Forall_forall in H, Hall. exact (H v Hin (Hall v Hin) WMaybe p Hp). }
    unfold T. cbn [trans substv]. rewrite map_map.
    exists (tx ++ SWord k_IN :: lp_t :: join_toks tl ++ [rp_t]). split.
    { autorewrite with ptoks. rewrite Htx, (join_pieces_toks _ _ Htl). reflexivity. }
    apply Fx_in; [exact Hsx| |destruct vs; [congruence|discriminate]].
    apply Forall2_map_l. eapply Forall2_impl; [|exact Hsl]. intros v t. apply C_Fx.
  - cbn [wfr] in Hwf. rewrite wx_paren in Hx. unfold T. cbn [trans]. apply IHe; assumption.
  - apply lit_body; assumption.
  - cbn [wfr] in Hwf. destruct Hwf as (Hname & Hall). apply wfr_all in Hall.
    rewrite wx_call in Hx. eapply wrap_shape; [exact Hx|]. clear Hx. intros b Hb.
    assert (IHarg : forall a w pa, In a args -> wx c w a = Ok pa -> exists ta, ptoks pa = Some ta /\ Shape w ta (T a)).
    { intros a w0 pa Hin Hpa. rewrite Forall_forall in H, Hall. apply (H a Hin (Hall a Hin) w0 pa Hpa). }
    rewrite T_call, body_shape_call. destruct (known_func (iname f)) as [[wr np]|] eqn:Ek.
    + destruct (arity_ok (writer_arity wr) (length args)) eqn:Ea; cbn [negb] in Hb; [|discriminate].
      apply fill_wargs_ok in Hb as (pas & Hpas & ->).
      destruct (wargs_toks _ args 0 IHarg pas Hpas) as (tas & Htas & Hlen & Hsh).
      exists (ttoks (writer_template wr) tas). split; [exact (tinst_toks pas tas Htas _ (templates_lex wr))|].
      rewrite <- (map_length T) in Ea. exact (call_reads wr tas _ Ea Hlen Hsh).
    +
      specialize (Hname eq_refl). cbn [Shape].
      apply bind_ok in Hb as (pargs & Hpargs & [= <-]).
      destruct (seq_map_reads _ (fun a t => Fx t (T a)) args pargs Hpargs) as (tl & Htl & Hsl).
      { intros a p Hin Hp. exact (IHarg a WPlain p Hin Hp). }
      destruct args as [|a0 args'].
      * injection Hpargs as <-. exists [SWord (iname f); lp_t; rp_t]. split; [reflexivity|]. apply A_call0. exact Hname.
      * exists (SWord (iname f) :: lp_t :: join_toks tl ++ [rp_t]). split.
        { autorewrite with ptoks. rewrite (join_pieces_toks _ _ Htl). reflexivity. }
        apply A_call; [exact Hname|apply Forall2_map_l; exact Hsl|discriminate].
  - cbn [wfr] in Hwf. destruct Hwf as (Hw1 & Hw2).
    rewrite wx_index in Hx. eapply wrap_shape; [exact Hx|]. clear Hx. intros b Hb.
    apply bind_ok in Hb as (px & Hpx & Hb). apply bind_ok in Hb as (pi & Hpi & [= <-]).
    destruct (IHe1 Hw1 WOperand px Hpx) as (tx & Htx & Hsx). destruct (IHe2 Hw2 WPlain pi Hpi) as (ti & Hti & Hsi). cbn [Shape] in Hsx, Hsi.
    unfold T. cbn [trans substv map].
    exists (tx ++ lb_t :: ti ++ [rb_t]). split; [autorewrite with ptoks; rewrite Htx, Hti; reflexivity|]. apply C_Fx, C_index; assumption.
Qed.
End Writer.

Lemma trans_ext (f g : str -> bool) jm : (forall n, f n = g n) -> forall e, trans f jm e = trans g jm e.
Proof.
  intros Hfg. induction e using expr_ind'.
  - cbn [trans]. destruct ps as [|p [|p2 r]]; try reflexivity. rewrite Hfg. reflexivity.
  - rewrite !trans_bin, IHe1, IHe2. reflexivity.
  - cbn [trans]. rewrite IHe. reflexivity.
  - cbn [trans]. rewrite IHe, (map_ext_Forall _ _ H). reflexivity.
  - exact IHe.
  - reflexivity.
  - rewrite !trans_call, (map_ext_Forall _ _ H). reflexivity.
  - cbn [trans]. rewrite IHe1, IHe2. reflexivity.
Qed.

Lemma substv_nobound vals jm : forall e, substv vals (trans (fun _ => false) jm e) = trans (fun _ => false) jm e.
Proof.
  induction e using expr_ind'.
  - cbn [trans]. destruct ps as [|p [|p2 r]]; try reflexivity. rewrite Bool.andb_false_r.
    destruct (negb (iquoted p)); [destruct (assoc_str builtin_idents (iname p))|]; reflexivity.
  - rewrite trans_bin, substv_bin_tree, IHe1, IHe2. reflexivity.
  - cbn [trans substv]. rewrite IHe. reflexivity.
  - cbn [trans substv]. rewrite IHe, map_map, (map_ext_Forall _ _ H). reflexivity.
  - exact IHe.
  - cbn [trans]. destruct k; reflexivity.
  - rewrite trans_call. destruct (known_func (iname f)) as [[wr np]|]; [rewrite substv_call_tree|cbn [substv]];
      rewrite map_map, (map_ext_Forall _ _ H); reflexivity.
  - cbn [trans substv]. rewrite IHe1, IHe2. reflexivity.
Qed.

Theorem wx_reads_empty c : c_scope c = [] -> forall e, wfr e -> forall w ps, wx c w e = Ok ps ->
  exists ts, ptoks ps = Some ts /\ Shape w ts (trans (fun _ => false) (mode_eqb (c_mode c) ModeJoin) e).
Proof.
  intros Hsc e Hwf w ps Hw.
  destruct (wx_reads c (fun _ => XWord []) ltac:(intros n ps0 Hn; rewrite Hsc in Hn; discriminate) e Hwf w ps Hw) as (ts & Ht & Hs).
  exists ts. split; [exact Ht|].
  rewrite (trans_ext _ (fun _ => false)) in Hs by (intros n; rewrite Hsc; reflexivity).
  rewrite substv_nobound in Hs. exact Hs.
Qed.

(** finding F1 as a condition, in any letter case *)
Fixpoint names_ok (e : expr) : Prop :=
  match e with
  | EQual _ | ELit _ _ _ => True
  | EUnary _ _ x | EParen _ x _ => names_ok x
  | EBin x _ _ y | EIndex x _ y _ => names_ok x /\ names_ok y
  | EIn x _ _ vs _ => names_ok x /\ (fix all (l : list expr) : Prop := match l with [] => True | a :: r => names_ok a /\ all r end) vs
  | ECall f _ args _ =>
    (known_func (iname f) = None -> plain_word (iname f)) /\
    (fix all (l : list expr) : Prop := match l with [] => True | a :: r => names_ok a /\ all r end) args
  end.

Definition names_ok_list (l : list expr) : Prop :=
  (fix all (l : list expr) : Prop := match l with [] => True | a :: r => names_ok a /\ all r end) l.

Definition wfr_list (l : list expr) : Prop :=
  (fix all (l : list expr) : Prop := match l with [] => True | a :: r => wfr a /\ all r end) l.

Lemma parsed_wfr :
  (forall e ts, toks_expr e ts -> names_ok e -> wfr e) /\
  (forall l ts, toks_list l ts -> names_ok_list l -> wfr_list l) /\
  (forall l ts, toks_args l ts -> names_ok_list l -> wfr_list l).
Proof.
  apply toks_expr_mutind; cbn [names_ok wfr names_ok_list wfr_list]; intros; try tauto.
  -
    match goal with H : toks_qual _ _ |- _ => destruct H; discriminate end.
  -
    split; [apply binop_sql_total; assumption|tauto].
Qed.

Section TopLevel.
Variable c : ctx.
Hypothesis scope_empty : c_scope c = [].

(** C01: what the expression parser accepted and the writer printed re-reads, token for token,
    as the tree the writer intends, with nothing left over. *)
Theorem printed_expression_rereads srclen f ts e rest ps :
  p_expr srclen f ts = (Some e, rest, []) -> names_ok e -> wexpr c e = Ok ps ->
  exists toks, ptoks ps = Some toks /\
    Conv (fun fuel => sx fuel 0 toks) (trans (fun _ => false) (mode_eqb (c_mode c) ModeJoin) e, []).
Proof.
  intros Hp Hn Hw. destruct (p_expr_sound _ _ _ _ _ Hp) as (used & _ & Hu).
  pose proof (proj1 parsed_wfr _ _ Hu Hn) as Hwf.
  destruct (wx_reads_empty c scope_empty e Hwf WPlain ps Hw) as (toks & Ht & [_ HF]). cbn [Shape] in HF.
  exists toks. split; [exact Ht|]. specialize (HF [] I). rewrite app_nil_r in HF. exact HF.
Qed.
End TopLevel.

(** property C06 (Props/C06.v) *)
Definition scope_inv (sc : scope) (vals : str -> sexpr) : Prop :=
  forall n ps, scope_get sc n = Some ps -> exists ts, ptoks ps = Some ts /\ A ts (vals n).
Definition isb_of (sc : scope) (n : str) : bool := match scope_get sc n with Some _ => true | None => false end.
Definition bound_in (names : list str) (n : str) : bool := existsb (fun k => str_eqb k n) names.

(** the documented scoping rules: a let before the query binds its name to the tree of its value
    read in the scope of the lets before it (a later let shadows); lets after the query bind nothing *)
Fixpoint let_vals (names : list str) (vals : str -> sexpr) (after_query : bool) (ss : list stmt) : list str * (str -> sexpr) :=
  match ss with
  | [] => (names, vals)
  | STab _ :: r => let_vals names vals true r
  | SLet _ name _ x :: r =>
    if after_query then let_vals names vals after_query r
    else
      let v := substv vals (trans (bound_in names) false x) in
      let_vals (iname name :: names) (fun n => if str_eqb (iname name) n then v else vals n) after_query r
  end.

Definition lets_wfr (ss : list stmt) : Prop :=
  Forall (fun s => match s with SLet _ _ _ x => wfr x | STab _ => True end) ss.

Theorem let_chain_scope : forall ss sc names vals q sc' q',
  lets_wfr ss -> scope_inv sc vals -> (forall n, isb_of sc n = bound_in names n) ->
  stmt_loop sc q ss = Ok (sc', q') ->
  let '(names', vals') := let_vals names vals (match q with Some _ => true | None => false end) ss in
  scope_inv sc' vals' /\ (forall n, isb_of sc' n = bound_in names' n).
Proof.
  induction ss as [|s r IH]; intros sc names vals q sc' q' Hwf Hinv Hnames Hloop; cbn [stmt_loop let_vals] in *.
  - injection Hloop as <- <-. split; assumption.
  - inversion Hwf as [|s0 r0 Hs Hr]; subst. destruct s as [kw name asp x|t].
    + destruct q as [t0|].
      * apply (IH sc names vals (Some t0) sc' q' Hr Hinv Hnames Hloop).
      * apply bind_ok in Hloop as (v & Hv & Hloop).
        set (tree := substv vals (trans (bound_in names) false x)).
        assert (HA : exists ts, ptoks v = Some ts /\ A ts tree).
        { destruct (wx_reads (mkCtx sc ModeLet) vals Hinv x Hs WOperand v Hv) as (ts & Hts & HAs). exists ts. split; [exact Hts|].
          cbn [Shape c_scope c_mode mode_eqb] in HAs. unfold tree.
          rewrite (trans_ext _ (bound_in names)) in HAs; [exact HAs|]. intros n. apply Hnames. }
        apply (IH ((iname name, v) :: sc) (iname name :: names) (fun n => if str_eqb (iname name) n then tree else vals n) None sc' q' Hr); [| |exact Hloop].
        -- intros n ps. cbn [scope_get]. destruct (str_eqb (iname name) n); [intros [= <-]; exact HA|apply Hinv].
        -- intros n. unfold isb_of, bound_in. cbn [scope_get existsb]. destruct (str_eqb (iname name) n); [reflexivity|apply Hnames].
    + destruct q as [t0|]; [discriminate|]. apply (IH sc names vals (Some t) sc' q' Hr Hinv Hnames Hloop).
Qed.

(** C06: every expression of the query re-reads as its intended tree with each bound name
    replaced by the tree of its let value: a substituted value always acts as one operand. *)
Theorem let_values_act_as_operands ss sc' t : lets_wfr ss -> stmt_loop [] None ss = Ok (sc', Some t) ->
  let '(names, vals) := let_vals [] (fun _ => XWord []) false ss in
  forall mode e w ps, wfr e -> wx (mkCtx sc' mode) w e = Ok ps ->
    exists ts, ptoks ps = Some ts /\ Shape w ts (substv vals (trans (bound_in names) (mode_eqb mode ModeJoin) e)).
Proof.
  intros Hwf Hloop.
  pose proof (let_chain_scope ss [] [] (fun _ => XWord []) None sc' (Some t) Hwf ltac:(intros n ps H; discriminate) ltac:(intros n; reflexivity) Hloop) as H.
  cbn iota in H. destruct (let_vals [] (fun _ => XWord []) false ss) as [names vals]. destruct H as [Hinv Hnames].
  intros mode e w ps He Hw.
  destruct (wx_reads (mkCtx sc' mode) vals Hinv e He w ps Hw) as (ts & Hts & Hs). exists ts. split; [exact Hts|].
  cbn [c_scope c_mode] in Hs. rewrite (trans_ext _ (bound_in names)) in Hs; [exact Hs|]. intros n. apply Hnames.
Qed.
