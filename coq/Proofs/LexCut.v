(** * Truncation.  The item at the head of a text depends only on the bytes it covers: cutting
    the text anywhere behind it leaves it unchanged, so an item that ends before a semicolon does
    not depend on what follows.  Conversely an identifier, a number and a rune read up to the end
    of the text are read the same when a semicolon or white space follows. *)
From PQL Require Import Model.Lexer Proofs.LexerFacts.
From Coq Require Import Lia ZifyBool.
Local Open Scope list_scope.
Local Open Scope nat_scope.

Lemma firstn_app_le {A} n (a b : list A) : n <= length a -> firstn n (a ++ b) = firstn n a.
Proof. intros H. rewrite firstn_app. replace (n - length a) with 0 by lia. cbn. apply app_nil_r. Qed.

Lemma skipn_app_le {A} n (a b : list A) : n <= length a -> skipn n (a ++ b) = skipn n a ++ b.
Proof. intros H. rewrite skipn_app. replace (n - length a) with 0 by lia. reflexivity. Qed.

(* [List.app_cons_not_nil] with the sides exchanged; it shadows that name in a file that imports
   this one after [List]. *)
Lemma app_cons_not_nil {A} (r : list A) x b : r ++ x :: b <> [].
Proof. intros H. exact (List.app_cons_not_nil r b x (eq_sym H)). Qed.

Lemma firstn_firstn_le {A} (m n : nat) (l : list A) : m <= n -> firstn m (firstn n l) = firstn m l.
Proof. intros H. rewrite firstn_firstn. f_equal. lia. Qed.

Lemma decode_firstn l n : snd (decode l) <= n -> decode (firstn n l) = decode l.
Proof.
  destruct l as [|b0 r]; [intros _; rewrite firstn_nil; reflexivity|].
  destruct n as [|n]; [pose proof (decode_width (b0 :: r) ltac:(congruence)); lia|].
  rewrite firstn_cons. unfold decode.
  destruct (b0 <? 128)%N; [reflexivity|].
  destruct (in_range 194 223 b0).
  { destruct r as [|b1 r1]; [rewrite firstn_nil; reflexivity|].
    destruct n as [|n]; cbn [firstn]; [destruct (is_cont b1); cbn [snd]; [lia|reflexivity]|reflexivity]. }
  destruct (in_range 224 239 b0).
  { destruct r as [|b1 [|b2 r2]]; try (destruct n as [|[|n]]; reflexivity).
    destruct (in_range _ _ b1 && is_cont b2) eqn:E; cbn [snd].
    - intros Hn. destruct n as [|[|n]]; try lia. cbn [firstn]. rewrite E. reflexivity.
    - intros _. destruct n as [|[|n]]; cbn [firstn]; try reflexivity. rewrite E. reflexivity. }
  destruct (in_range 240 244 b0).
  { destruct r as [|b1 [|b2 [|b3 r3]]]; try (destruct n as [|[|[|n]]]; reflexivity).
    destruct (in_range _ _ b1 && is_cont b2 && is_cont b3) eqn:E; cbn [snd].
    - intros Hn. destruct n as [|[|[|n]]]; try lia. cbn [firstn]. rewrite E. reflexivity.
    - intros _. destruct n as [|[|[|n]]]; cbn [firstn]; try reflexivity. rewrite E. reflexivity. }
  reflexivity.
Qed.

Lemma take_while_firstn p l : forall n, length (take_while p l) <= n -> take_while p (firstn n l) = take_while p l.
Proof.
  induction l as [|c r IH]; intros n Hn; [rewrite firstn_nil; reflexivity|].
  cbn [take_while] in *. destruct (p c) eqn:E.
  - destruct n as [|n]; [cbn [length] in Hn; lia|]. rewrite firstn_cons. cbn [take_while]. rewrite E, IH; [reflexivity|cbn [length] in Hn; lia].
  - destruct n as [|n]; [reflexivity|]. rewrite firstn_cons. cbn [take_while]. rewrite E. reflexivity.
Qed.

Lemma exponent_len_firstn l n : exponent_len l <= n -> exponent_len (firstn n l) = exponent_len l.
Proof.
  unfold exponent_len. destruct l as [|e r]; [intros _; rewrite firstn_nil; reflexivity|].
  destruct n as [|n].
  { destruct ((e =? 101)%N || (e =? 69)%N); [|reflexivity].
    destruct r as [|sg r']; [reflexivity|].
    destruct ((sg =? 43)%N || (sg =? 45)%N).
    - destruct r' as [|d r'']; [reflexivity|]. destruct (is_digit d); [lia|reflexivity].
    - destruct (is_digit sg); [lia|reflexivity]. }
  rewrite firstn_cons. destruct ((e =? 101)%N || (e =? 69)%N); [|reflexivity].
  destruct r as [|sg r']; [rewrite firstn_nil; reflexivity|].
  destruct ((sg =? 43)%N || (sg =? 45)%N) eqn:Esg.
  - destruct r' as [|d r''].
    + destruct n as [|n]; cbn [firstn]; [reflexivity|rewrite Esg, firstn_nil; reflexivity].
    + destruct (is_digit d) eqn:Ed.
      * intros Hn. cbn [take_while] in Hn. rewrite Ed in Hn. cbn [length] in Hn.
        destruct n as [|[|n]]; try lia. cbn [firstn]. rewrite Esg, Ed.
        pose proof (take_while_firstn is_digit (d :: r'') (S n)) as H. cbn [take_while] in H. rewrite Ed in H. cbn [length firstn] in H.
        rewrite H by lia. cbn [take_while]. rewrite Ed. reflexivity.
      * intros _. destruct n as [|[|n]]; cbn [firstn]; try reflexivity; rewrite Esg; try reflexivity. rewrite Ed. reflexivity.
  - destruct (is_digit sg) eqn:Ed.
    + intros Hn. cbn [take_while] in Hn. rewrite Ed in Hn. cbn [length] in Hn.
      destruct n as [|n]; try lia. cbn [firstn]. rewrite Esg, Ed.
      pose proof (take_while_firstn is_digit (sg :: r') (S n)) as H. cbn [take_while] in H. rewrite Ed in H. cbn [length firstn] in H.
      rewrite H by lia. cbn [take_while]. rewrite Ed. reflexivity.
    + intros _. destruct n as [|n]; cbn [firstn]; [reflexivity|]. rewrite Esg, Ed. reflexivity.
Qed.

Lemma digits_len_firstn : forall l d n, digits_len d l <= n -> digits_len d (firstn n l) = digits_len d l.
Proof.
  induction l as [|c r IH]; intros d n Hn; [rewrite firstn_nil; reflexivity|].
  cbn [digits_len] in *. destruct ((c =? 46)%N && negb d) eqn:E1.
  - destruct n as [|n]; [lia|]. rewrite firstn_cons. cbn [digits_len]. rewrite E1, IH by lia. reflexivity.
  - destruct (is_digit c) eqn:E2.
    + destruct n as [|n]; [lia|]. rewrite firstn_cons. cbn [digits_len]. rewrite E1, E2, IH by lia. reflexivity.
    + destruct n as [|n].
      * cbn [firstn digits_len]. unfold exponent_len in Hn |- *. destruct ((c =? 101)%N || (c =? 69)%N); [|reflexivity].
        destruct r as [|sg r']; [reflexivity|]. destruct ((sg =? 43)%N || (sg =? 45)%N).
        -- destruct r' as [|d0 r'']; [reflexivity|]. destruct (is_digit d0); [lia|reflexivity].
        -- destruct (is_digit sg); [lia|reflexivity].
      * rewrite firstn_cons. cbn [digits_len]. rewrite E1, E2. rewrite <- firstn_cons. apply exponent_len_firstn. exact Hn.
Qed.

Lemma comment_len_firstn l : forall n, comment_len l <= n -> comment_len (firstn n l) = comment_len l.
Proof.
  induction l as [|c r IH]; intros n Hn; [rewrite firstn_nil; reflexivity|].
  pose proof (comment_len_pos (c :: r) ltac:(discriminate)). destruct n as [|n]; [lia|].
  cbn [firstn comment_len] in *. destruct (c =? 10)%N; [reflexivity|]. rewrite IH by lia. reflexivity.
Qed.

Lemma quoted_body_firstn : forall f l n, snd (quoted_body f l) <= n -> quoted_body f (firstn n l) = quoted_body f l.
Proof.
  induction f as [|f IH]; intros l n Hn; [reflexivity|].
  destruct l as [|c r]; [rewrite firstn_nil; reflexivity|].
  cbn [quoted_body] in Hn |- *.
  destruct (c =? 96)%N eqn:E96.
  - destruct r as [|c2 r2].
    + cbn [snd] in Hn. destruct n as [|n]; [lia|]. rewrite firstn_cons, firstn_nil. cbn [quoted_body]. rewrite E96. reflexivity.
    + destruct (c2 =? 96)%N eqn:E2.
      * destruct (quoted_body f r2) as [o m] eqn:Er. cbn [snd] in Hn.
        destruct n as [|[|n]]; try lia. rewrite !firstn_cons. cbn [quoted_body]. rewrite E96, E2.
        rewrite (IH r2 n); [rewrite Er; reflexivity|rewrite Er; cbn [snd]; lia].
      * cbn [snd] in Hn. destruct n as [|[|n]]; try lia.
        -- cbn [firstn quoted_body]. rewrite E96. reflexivity.
        -- rewrite !firstn_cons. cbn [quoted_body]. rewrite E96, E2. reflexivity.
  - destruct (c =? 10)%N eqn:Enl.
    + destruct n as [|n]; [reflexivity|]. rewrite firstn_cons. cbn [quoted_body]. rewrite E96, Enl. reflexivity.
    + destruct (quoted_body f r) as [o m] eqn:Er. cbn [snd] in Hn.
      destruct n as [|n]; [lia|]. rewrite firstn_cons. cbn [quoted_body]. rewrite E96, Enl.
      rewrite (IH r n); [rewrite Er; reflexivity|rewrite Er; cbn [snd]; lia].
Qed.

Definition selem_len (e : selem) : nat := match e with SClose w | SErr w | SChunk _ w _ => w end.

(** a backslash, and a newline, are one byte: that much of an element survives any cut *)
Lemma str_elem_firstn q l n : 1 <= n -> selem_len (str_elem q l) <= n -> str_elem q (firstn n l) = str_elem q l.
Proof.
  intros Hn. destruct l as [|c0 r0] eqn:El; [rewrite firstn_nil; reflexivity|]. rewrite <- El.
  assert (Hne : l <> []) by (rewrite El; discriminate).
  unfold str_elem. pose proof (decode_width l Hne) as Hw.
  assert (Hdec : snd (decode l) <= n -> decode (firstn n l) = decode l) by apply decode_firstn.
  assert (Hasc : (fst (decode l) < 128)%N -> snd (decode l) = 1)
    by (intros H; rewrite El in *; destruct (decode (c0 :: r0)) as [c w] eqn:Ed; destruct (decode_small _ _ _ _ Ed H) as [_ ->]; reflexivity).
  destruct (decode l) as [c w]. cbn [fst snd] in *.
  destruct (c =? q)%N eqn:Eq; [cbn [selem_len]; intros H; rewrite (Hdec H), Eq; reflexivity|].
  destruct (c =? 10)%N eqn:E10; [intros _; rewrite Hdec, Eq, E10 by lia; reflexivity|].
  destruct (c =? 92)%N eqn:E92.
  2:{ cbn [selem_len]. intros H. rewrite (Hdec H), Eq, E10, E92, firstn_firstn_le by lia. reflexivity. }
  rewrite Hasc in * by lia. rewrite Hdec, Eq, E10, E92 by lia. cbv zeta. rewrite skipn_firstn_comm.
  destruct (skipn 1 l) as [|c1 r1]; [intros _; rewrite firstn_nil; reflexivity|].
  pose proof (decode_width (c1 :: r1) ltac:(discriminate)) as Hw1.
  pose proof (decode_firstn (c1 :: r1) (n - 1)) as Hdec1.
  assert (Hasc1 : (fst (decode (c1 :: r1)) < 128)%N -> snd (decode (c1 :: r1)) = 1)
    by (intros H; destruct (decode (c1 :: r1)) as [c2 w2] eqn:Ed; destruct (decode_small _ _ _ _ Ed H) as [_ ->]; reflexivity).
  destruct (decode (c1 :: r1)) as [c2 w2]. cbn [fst snd] in *.
  destruct (n - 1) as [|m] eqn:En.
  - (* only the backslash is left *)
    destruct (c2 =? 10)%N; [reflexivity|]. cbn [selem_len]. lia.
  - rewrite firstn_cons. cbv iota beta. rewrite <- firstn_cons.
    destruct (c2 =? 10)%N eqn:E2; [intros _; rewrite Hasc1 in Hdec1 by lia; rewrite Hdec1, E2 by lia; reflexivity|].
    cbn [selem_len]. intros H. rewrite Hdec1, E2, firstn_firstn_le by lia. reflexivity.
Qed.

Lemma string_body_firstn q : forall f esc l n, snd (string_body f q esc l) <= n ->
  string_body f q esc (firstn n l) = string_body f q esc l.
Proof.
  induction f as [|f IH]; intros esc l n Hn; [reflexivity|].
  destruct l as [|c0 r0] eqn:El; [rewrite firstn_nil; reflexivity|]. rewrite <- El in *.
  assert (Hne : l <> []) by (rewrite El; discriminate).
  pose proof (str_elem_line q l Hne) as He. rewrite (string_body_step f q esc l Hne) in Hn |- *.
  destruct n as [|n].
  { (* nothing was consumed: a newline is at the head *)
    destruct (str_elem q l) as [w|w|out w e]; [cbn [snd] in Hn; lia| |destruct (string_body f q _ _); cbn [snd] in Hn; lia].
    cbn [snd] in Hn. replace w with 0 by lia. destruct f; reflexivity. }
  assert (Hne' : firstn (S n) l <> []) by (rewrite El; discriminate).
  rewrite string_body_step by exact Hne'.
  rewrite str_elem_firstn; [|lia|destruct (str_elem q l); [exact Hn|exact Hn|destruct (string_body f q _ _); cbn [snd selem_len] in *; lia]].
  destruct (str_elem q l) as [w|w|out w e]; [reflexivity|reflexivity|].
  rewrite skipn_firstn_comm. destruct (string_body f q (e || esc) (skipn w l)) as [o m] eqn:Er. cbn [snd] in Hn.
  rewrite IH by (rewrite Er; cbn [snd]; lia). rewrite Er. reflexivity.
Qed.

Lemma lex_ident_firstn b r n : item_len (lex_ident (b :: r)) <= S n -> lex_ident (b :: firstn n r) = lex_ident (b :: r).
Proof.
  unfold lex_ident. intros H.
  rewrite take_while_firstn by (destruct (keyword_kind _); cbn [item_len length] in H; lia). reflexivity.
Qed.

Lemma hex_start_firstn n l : hex_start l = false -> hex_start (firstn n l) = false.
Proof. destruct l as [|z [|x l]], n as [|[|n]]; auto. Qed.

Lemma lex_number_firstn b r n : item_len (lex_number (b :: r)) <= S n -> lex_number (b :: firstn n r) = lex_number (b :: r).
Proof.
  rewrite !lex_number_eq. destruct (hex_start (b :: r)) eqn:Eh.
  - destruct r as [|x r']; [discriminate|]. rewrite hex_item_len. cbn [skipn]. intros H.
    destruct n as [|n]; [lia|]. cbn [firstn hex_start skipn] in *. rewrite Eh. unfold hex_item.
    rewrite take_while_firstn by lia. reflexivity.
  - rewrite <- firstn_cons, hex_start_firstn, firstn_cons by exact Eh.
    destruct (lone_dot (b :: r)) eqn:Ed.
    + intros _. replace (lone_dot (b :: firstn n r)) with true; [reflexivity|].
      destruct n, r as [|c r']; cbn [firstn lone_dot] in *; lia.
    + cbn [item_len]. intros H. replace (lone_dot (b :: firstn n r)) with false.
      * rewrite digits_len_firstn by lia. cbv zeta. rewrite <- firstn_cons, firstn_firstn_le by lia. reflexivity.
      * (* a point before a digit: the item has two bytes at least *)
        destruct n, r as [|c r']; cbn [firstn lone_dot digits_len] in *; try lia.
        destruct (b =? 46)%N; [|reflexivity]. destruct (is_digit c); [|discriminate]. rewrite Bool.andb_false_r in H. lia.
Qed.

Lemma lex_string_firstn q r n : item_len (lex_string (q :: r)) <= S n -> lex_string (q :: firstn n r) = lex_string (q :: r).
Proof.
  unfold lex_string. destruct (string_body (S (length r)) q false r) as [o m] eqn:Eb. intros H.
  rewrite (string_body_fuel q _ (S (length r)) false (firstn n r)) by (rewrite firstn_length; lia).
  rewrite string_body_firstn, Eb; [reflexivity|]. rewrite Eb. destruct o; cbn [item_len snd] in *; lia.
Qed.

Lemma lex_quoted_firstn q r n : item_len (lex_quoted (q :: r)) <= S n -> lex_quoted (q :: firstn n r) = lex_quoted (q :: r).
Proof.
  unfold lex_quoted. destruct (quoted_body (length (q :: r)) r) as [o m] eqn:Eb. intros H.
  rewrite (quoted_body_fuel _ (length (q :: r)) (firstn n r)) by (cbn [length]; rewrite firstn_length; lia).
  rewrite quoted_body_firstn, Eb; [reflexivity|]. rewrite Eb. destruct o; cbn [item_len snd] in *; lia.
Qed.

Theorem lex1_firstn l n : item_len (lex1 l) <= n -> lex1 (firstn n l) = lex1 l.
Proof.
  destruct l as [|b0 r0] eqn:El; [rewrite firstn_nil; reflexivity|]. rewrite <- El.
  assert (Hne : l <> []) by (rewrite El; discriminate). clear El b0 r0.
  pose proof (lex1_progress l Hne) as Hp. revert Hp.
  generalize (lex1_viewP l Hne). generalize (lex1 l). intros i V Hp H.
  destruct n as [|n]; [lia|]. apply lex1_view_eq. clear Hp.
  destruct V as [l Hl Hs|b r Hb|b r Hb|q r Hq|r|r|b c k r Hin|b k r Hin Hr|l Hl Hs Hb]; cbn [item_len] in H; rewrite ?firstn_cons.
  - destruct l; [congruence|]. rewrite <- (decode_firstn _ (S n) H). apply v_space; [discriminate|]. rewrite decode_firstn; assumption.
  - rewrite <- (lex_ident_firstn b r n H). apply v_ident, Hb.
  - rewrite <- (lex_number_firstn b r n H). apply v_number, Hb.
  - rewrite <- (lex_string_firstn q r n H). apply v_string, Hq.
  - rewrite <- (lex_quoted_firstn _ r n H). apply v_quoted.
  - destruct n as [|n]; [lia|]. rewrite firstn_cons, <- (comment_len_firstn r n) by lia. apply v_comment.
  - destruct n as [|n]; [lia|]. rewrite firstn_cons. apply v_op2, Hin.
  - apply v_op1; [exact Hin|]. destruct n, r; try exact I; exact Hr.
  - destruct l; [congruence|]. rewrite <- (decode_firstn _ (S n) H). apply v_bad; [discriminate| |]; rewrite decode_firstn; assumption.
Qed.

Theorem lex1_prefix a b : item_len (lex1 (a ++ b)) <= length a -> lex1 (a ++ b) = lex1 a.
Proof. intros H. rewrite <- (lex1_firstn _ _ H), firstn_app, Nat.sub_diag, firstn_all. apply f_equal, app_nil_r. Qed.

(** the case property C15 (Props/C15.v) states; it does not need [a <> []] *)
Theorem lex1_semi_cut a b : a <> [] -> item_len (lex1 (a ++ 59%N :: b)) <= length a ->
  lex1 (a ++ 59%N :: b) = lex1 a.
Proof. intros _. apply lex1_prefix. Qed.

(** a byte at which every unquoted lexeme ends and which is not a continuation byte: the semicolon
    and the ASCII white space *)
Definition neutral (x : N) : Prop := x = 59%N \/ x = 10%N \/ x = 32%N \/ x = 9%N \/ x = 13%N.

Ltac neutral_cases Hx := destruct Hx as [-> | [-> | [-> | [-> | ->]]]].

Lemma take_while_cut p x r b : p x = false -> take_while p (r ++ x :: b) = take_while p r.
Proof. intros Hp. induction r as [|c r IH]; cbn [app take_while]; [rewrite Hp; reflexivity|]. destruct (p c); [f_equal; exact IH|reflexivity]. Qed.

Lemma neutral_not_digit x : neutral x -> is_digit x = false.
Proof. intros H; neutral_cases H; reflexivity. Qed.
Lemma neutral_not_hex x : neutral x -> is_hex_digit x = false.
Proof. intros H; neutral_cases H; reflexivity. Qed.
Lemma neutral_not_ident x : neutral x -> is_ident_char x = false.
Proof. intros H; neutral_cases H; reflexivity. Qed.

Lemma exponent_len_cut x r b : neutral x -> exponent_len (r ++ x :: b) = exponent_len r.
Proof.
  intros Hx. unfold exponent_len.
  destruct r as [|e r]; cbn [app].
  - neutral_cases Hx; reflexivity.
  - destruct ((e =? 101)%N || (e =? 69)%N); [|reflexivity].
    destruct r as [|sg r]; cbn [app].
    + neutral_cases Hx; reflexivity.
    + destruct ((sg =? 43)%N || (sg =? 45)%N).
      * destruct r as [|d r]; cbn [app].
        -- neutral_cases Hx; reflexivity.
        -- destruct (is_digit d); [|reflexivity].
           rewrite (app_comm_cons r (x :: b) d). rewrite take_while_cut by (apply neutral_not_digit; exact Hx). reflexivity.
      * destruct (is_digit sg); [|reflexivity].
        rewrite (app_comm_cons r (x :: b) sg). rewrite take_while_cut by (apply neutral_not_digit; exact Hx). reflexivity.
Qed.

Lemma digits_len_cut x b : neutral x -> forall r d, digits_len d (r ++ x :: b) = digits_len d r.
Proof.
  intros Hx. induction r as [|c r IH]; intros d; cbn [app].
  - cbn [digits_len]. neutral_cases Hx; destruct d; reflexivity.
  - cbn [digits_len]. destruct ((c =? 46)%N && negb d); [f_equal; apply IH|].
    destruct (is_digit c); [f_equal; apply IH|].
    apply (exponent_len_cut x (c :: r) b Hx).
Qed.

Lemma lex_ident_cut x a b : neutral x -> a <> [] -> lex_ident (a ++ x :: b) = lex_ident a.
Proof.
  intros Hx Ha. destruct a as [|c r]; [congruence|]. cbn [app lex_ident].
  rewrite take_while_cut by (apply neutral_not_ident; exact Hx). reflexivity.
Qed.

Lemma lex_number_cut x c r b : neutral x -> lex_number (c :: r ++ x :: b) = lex_number (c :: r).
Proof.
  intros Hx. rewrite !lex_number_eq.
  replace (hex_start (c :: r ++ x :: b)) with (hex_start (c :: r))
    by (destruct r; [neutral_cases Hx; cbn; rewrite Bool.andb_false_r|]; reflexivity).
  replace (lone_dot (c :: r ++ x :: b)) with (lone_dot (c :: r))
    by (destruct r; [neutral_cases Hx; cbn; rewrite Bool.andb_true_r|]; reflexivity).
  destruct (hex_start (c :: r)) eqn:Eh.
  - destruct r as [|y r']; [discriminate|]. cbn [app skipn]. unfold hex_item.
    rewrite take_while_cut by (apply neutral_not_hex; exact Hx). reflexivity.
  - destruct (lone_dot (c :: r)); [reflexivity|]. rewrite digits_len_cut by exact Hx. cbv zeta.
    pose proof (digits_len_le r (c =? 46)%N). rewrite (app_comm_cons _ _ c), firstn_app_le by (cbn [length]; lia). reflexivity.
Qed.

Lemma neutral_not_cont x : neutral x -> is_cont x = false.
Proof. intros H; neutral_cases H; reflexivity. Qed.

Lemma decode_cut x a b : neutral x -> a <> [] -> decode (a ++ x :: b) = decode a.
Proof.
  intros Hx Ha. pose proof (neutral_not_cont x Hx) as Hc.
  destruct a as [|b0 r]; [congruence|]. cbn [app]. unfold decode.
  destruct (b0 <? 128)%N; [reflexivity|].
  destruct (in_range 194 223 b0).
  { destruct r as [|b1 r]; cbn [app]; [rewrite Hc; reflexivity|reflexivity]. }
  destruct (in_range 224 239 b0).
  { destruct r as [|b1 [|b2 r]]; cbn [app]; try reflexivity.
    - (* b1 = x *) assert (in_range (if (b0 =? 224)%N then 160 else 128) (if (b0 =? 237)%N then 159 else 191) x = false) as ->.
      { neutral_cases Hx; destruct (b0 =? 224)%N, (b0 =? 237)%N; reflexivity. }
      destruct b; reflexivity.
    - rewrite Hc, Bool.andb_false_r. reflexivity. }
  destruct (in_range 240 244 b0).
  { destruct r as [|b1 [|b2 [|b3 r]]]; cbn [app]; try reflexivity.
    - assert (in_range (if (b0 =? 240)%N then 144 else 128) (if (b0 =? 244)%N then 143 else 191) x = false) as ->.
      { neutral_cases Hx; destruct (b0 =? 240)%N, (b0 =? 244)%N; reflexivity. }
      destruct b as [|? [|? ?]]; reflexivity.
    - rewrite Hc, Bool.andb_false_r. destruct b; reflexivity.
    - rewrite Hc, Bool.andb_false_r. reflexivity. }
  reflexivity.
Qed.
