(** * The values of the scanner's identifier and number tokens are SQL words and SQL number
    spellings, so every parsed program satisfies the lexical side conditions ([stmts_lex]) of the
    byte-level theorem (SqlGlueProg.v); at the end, the two halves (bytes to tokens, tokens to
    statement) joined.  Character codes: 43 45 `+` `-`, 46 `.`, 48 `0`, 69 101 `E` `e`. *)
From PQL Require Import Spec.FlattenStmt Spec.SqlRead Proofs.ReadBackStmt Proofs.LexerFacts Proofs.LexCut Proofs.LexSpec
  Proofs.ParserSoundStmt Proofs.ParserReject Proofs.ReadBack Proofs.SqlGlue Proofs.SqlGlueWriter Proofs.SqlGlueProg Proofs.ParsedWf.
From Coq Require Import Lia ZifyBool.
Local Open Scope list_scope.
Local Open Scope nat_scope.
Local Notation length := List.length (only parsing).

Definition tok_ok (t : token) : Prop :=
  (tkind t = KNumber -> is_num_text (tvalue t) = true) /\ (tkind t = KIdentifier -> is_word_text (tvalue t) = true).
Definition all_tok_ok (ts : list token) : Prop := Forall tok_ok ts.

Lemma qual_tokok ps ts : toks_qual ps ts -> all_tok_ok ts -> True.
Proof. trivial. Qed.

(** splits every [all_tok_ok (a ++ b)], [all_tok_ok (t :: r)] into one for each part *)
Ltac inv_tokok :=
  repeat match goal with
  | H : all_tok_ok (_ ++ _) |- _ => apply Forall_app in H as [? ?]
  | H : all_tok_ok (_ :: _) |- _ => let H1 := fresh "Hk" in let H2 := fresh "Hr" in pose proof (Forall_inv H) as H1; pose proof (Forall_inv_tail H) as H2; clear H
  | H : Forall tok_ok (_ ++ _) |- _ => apply Forall_app in H as [? ?]
  | H : Forall tok_ok (_ :: _) |- _ => let H1 := fresh "Hk" in let H2 := fresh "Hr" in pose proof (Forall_inv H) as H1; pose proof (Forall_inv_tail H) as H2; clear H
  end.

Lemma expr_tokok : (forall e ts, toks_expr e ts -> all_tok_ok ts -> lexok e) /\
  (forall l ts, toks_list l ts -> all_tok_ok ts -> Forall lexok l) /\
  (forall l ts, toks_args l ts -> all_tok_ok ts -> Forall lexok l).
Proof.
  apply toks_expr_mutind; intros; unfold all_tok_ok in *; inv_tokok; cbn [lexok]; auto.
  - intros ->. match goal with Hk : tok_ok ?t, Hkind : tkind ?t = KNumber, Hv : tvalue ?t = _ |- _ => destruct Hk as [Hn _]; rewrite <- Hv; apply Hn; exact Hkind end.
  - split; [auto|]. apply lexok_all. auto.
  - split; [|apply lexok_all; auto].
    intros _. match goal with Hi : ident_tok ?f ?t, Hq : iquoted ?f = false, Hk : tok_ok ?t |- _ =>
      destruct Hi as (Hkd & Hv & _); rewrite Hq in Hkd; destruct Hk as [_ Hw]; rewrite <- Hv; apply Hw; exact Hkd end.
Qed.

Lemma sep_tokok {A} (P : A -> list token -> Prop) (Q : A -> Prop) : (forall a ts, P a ts -> all_tok_ok ts -> Q a) ->
  forall l ts, toks_sep P l ts -> all_tok_ok ts -> Forall Q l.
Proof. apply sep_items. intros ta c tr H. apply Forall_app in H as [Ha H]. split; [exact Ha|exact (Forall_inv_tail H)]. Qed.

Lemma sort_term_tokok t ts : toks_sort_term t ts -> all_tok_ok ts -> lexok (st_x t).
Proof. intros H Hok. destruct H. unfold all_tok_ok in *. inv_tokok. cbn [st_x]. eapply (proj1 expr_tokok); eassumption. Qed.
Lemma ext_col_tokok c ts : toks_ext_col c ts -> all_tok_ok ts -> lexok (ec_x c).
Proof. intros H Hok. destruct H; unfold all_tok_ok in *; inv_tokok; cbn [ec_x]; eapply (proj1 expr_tokok); eassumption. Qed.
Lemma proj_col_tokok c ts : toks_proj_col c ts -> all_tok_ok ts -> match pc_x c with Some x => lexok x | None => True end.
Proof. intros H Hok. destruct H; unfold all_tok_ok in *; inv_tokok; cbn [pc_x]; [exact I|]. eapply (proj1 expr_tokok); eassumption. Qed.

Lemma op_tokok : (forall o ts, toks_op o ts -> all_tok_ok ts -> oper_lex o) /\ (forall l ts, toks_ops l ts -> all_tok_ok ts -> Forall oper_lex l).
Proof.
  apply toks_op_mutind; intros; unfold all_tok_ok in *; inv_tokok; cbn [oper_lex]; auto.
  - eapply (proj1 expr_tokok); eassumption.
  - eapply (sep_tokok _ (fun t => lexok (st_x t)) sort_term_tokok); eassumption.
  - eapply (proj1 expr_tokok); eassumption.
  - split; [eapply (proj1 expr_tokok); eassumption|eapply sort_term_tokok; eassumption].
  - eapply (sep_tokok _ _ proj_col_tokok); eassumption.
  - eapply (sep_tokok _ (fun c => lexok (ec_x c)) ext_col_tokok); eassumption.
  -
    match goal with H : toks_summ _ _ _ _ |- _ => destruct H end; unfold all_tok_ok in *; inv_tokok;
      repeat match goal with |- _ /\ _ => split end;
      try (eapply (sep_tokok _ (fun c => lexok (ec_x c)) ext_col_tokok); eassumption); constructor.
  - split; [eapply (proj1 (proj2 expr_tokok)); eassumption|]. apply oper_lex_all. auto.
Qed.

Lemma stmt_tokok s ts : toks_stmt s ts -> all_tok_ok ts -> match s with SLet _ _ _ x => lexok x | STab t => Forall oper_lex (tops t) end.
Proof.
  intros H Hok. destruct H as [ksp i asp x tk ti ta tx Hk Hi Ha Hx|t ts (tsrc0 & tro & -> & Hs & Ho)]; unfold all_tok_ok in *; inv_tokok.
  - eapply (proj1 expr_tokok); eassumption.
  - eapply (proj2 op_tokok); eassumption.
Qed.

Lemma prog_tokok ss ts : toks_prog ss ts -> all_tok_ok ts -> stmts_lex ss.
Proof.
  induction 1; intros Hok; unfold all_tok_ok, stmts_lex in *; inv_tokok.
  - constructor.
  - auto.
  - constructor; [eapply stmt_tokok; eassumption|constructor].
  - constructor; [eapply stmt_tokok; eassumption|auto].
Qed.

Lemma keyword_not_ident s k : keyword_kind s = Some k -> k <> KIdentifier /\ k <> KNumber.
Proof. intros H. apply keyword_kind_in in H. cbv in H. split; intros ->; intuition discriminate. Qed.

Lemma lex1_ident_or_number l k v n : l <> [] -> lex1 l = Tok k v n ->
  (k = KIdentifier -> exists b r, l = b :: r /\ is_ident_start b = true /\ lex_ident l = Tok k v n) /\
  (k = KNumber -> exists b r, l = b :: r /\ (is_digit b || (b =? 46)%N) = true /\ lex_number l = Tok k v n).
Proof.
  intros Hne. destruct (lex1_viewP l Hne) as [l0 _ _|b r Hb|b r Hb|q r _|r|r|b c k0 r Hin|b k0 r Hin _|l0 _ _ _]; intros H;
    try (split; intros ->; discriminate H).
  - split; [intros _; exists b, r; auto|]. intros ->. exfalso. unfold lex_ident in H.
    destruct (keyword_kind _) eqn:Ek; [|discriminate]. injection H as -> _ _. exact (proj2 (keyword_not_ident _ _ Ek) eq_refl).
  - split; [|intros _; exists b, r; auto]. intros ->. exfalso. revert H.
    destruct (lex_number_viewP b r Hb) as [x r' _|r' _|l' _]; [cbv zeta|discriminate|discriminate].
    destruct (take_while _ _); [discriminate|]. destruct (_ <? _)%N; discriminate.
  - unfold lex_string in H. destruct (string_body _ _ _ _) as [[?|] ?]; split; intros ->; discriminate.
  - unfold lex_quoted in H. destruct (quoted_body _ _) as [[?|] ?]; split; intros ->; discriminate.
  - injection H as <- _ _. cbv in Hin. split; intros ->; intuition discriminate.
  - injection H as <- _ _. cbv in Hin. split; intros ->; intuition discriminate.
Qed.

Lemma ident_char_word c : is_ident_char c = true -> is_word_char c = true.
Proof. unfold is_ident_char, is_word_char. intros H. apply Bool.orb_true_iff. left. exact H. Qed.

Lemma ident_value_word b r v n : is_ident_start b = true -> lex_ident (b :: r) = Tok KIdentifier v n -> is_word_text v = true.
Proof.
  intros Hb. unfold lex_ident. destruct (keyword_kind _) eqn:Ekw.
  - intros [= Hk _ _]. exfalso. exact (proj1 (keyword_not_ident _ _ Ekw) Hk).
  - intros [= <- _]. unfold is_word_text. change (is_word_start b) with (is_ident_start b). rewrite Hb. cbn [andb].
    clear. induction r as [|x r IH]; cbn [take_while forallb]; [reflexivity|]. destruct (is_ident_char x) eqn:E; cbn [forallb]; [|reflexivity].
    rewrite (ident_char_word x E). exact IH.
Qed.

Lemma digits_len_digits d ds : forallb is_digit ds = true -> digits_len d ds = length ds.
Proof.
  revert d. induction ds as [|c r IH]; intros d H; [reflexivity|]. cbn [forallb] in H. apply andb_prop in H as [Hc Hr].
  cbn [digits_len]. assert (E : (c =? 46)%N = false) by (unfold is_digit, in_range in Hc; lia). rewrite E, Hc. cbn [andb length]. rewrite IH by exact Hr. reflexivity.
Qed.

Lemma dec_digits_digits f : forall n acc, forallb is_digit acc = true -> forallb is_digit (dec_digits f n acc) = true.
Proof.
  induction f as [|f IH]; intros n acc Hacc; cbn [dec_digits]; [exact Hacc|].
  assert (Hd : is_digit (48 + n mod 10) = true).
  { unfold is_digit, in_range. pose proof (N.mod_upper_bound n 10 ltac:(lia)). lia. }
  destruct (n / 10 =? 0)%N; [cbn [forallb]; rewrite Hd; exact Hacc|]. apply IH. cbn [forallb]. rewrite Hd. exact Hacc.
Qed.

Lemma dec_digits_nonempty f : forall n acc, 0 < f -> dec_digits f n acc <> [].
Proof.
  induction f as [|f IH]; intros n acc Hf; [lia|]. cbn [dec_digits]. destruct (n / 10 =? 0)%N; [discriminate|].
  destruct f as [|f']; [cbn [dec_digits]; discriminate|]. apply IH. lia.
Qed.

Lemma digits_num_text ds : forallb is_digit ds = true -> ds <> [] -> is_num_text ds = true.
Proof.
  intros Hd Hne. unfold is_num_text. destruct ds as [|c r]; [congruence|].
  pose proof Hd as Hd'. cbn [forallb] in Hd'. apply andb_prop in Hd' as [Hc _].
  rewrite <- digits_false_stages by exact Hc. rewrite digits_len_digits by exact Hd. rewrite Nat.eqb_refl, Hc. cbn [andb].
  destruct (last_char_forall is_digit (c :: r) Hne Hd) as (x & -> & Hx). rewrite Hx. reflexivity.
Qed.

Lemma take_all_last (l : str) : length (take_while is_digit l) = length l -> l <> [] -> exists x, last_char l = Some x /\ is_digit x = true.
Proof. intros Hl Hne. apply last_char_forall; [exact Hne|apply take_while_full; exact Hl]. Qed.

Lemma exponent_all_last l : exponent_len l = length l -> l <> [] -> exists x, last_char l = Some x /\ is_digit x = true.
Proof.
  unfold exponent_len. destruct l as [|e r]; [congruence|]. intros H _. destruct ((e =? 101)%N || (e =? 69)%N); [|cbn [length] in H; lia].
  destruct r as [|s r']; [cbn [length] in H; lia|]. destruct ((s =? 43)%N || (s =? 45)%N).
  - destruct r' as [|d r'']; [cbn [length] in H; lia|]. destruct (is_digit d) eqn:Ed; [|cbn [length] in H; lia].
    cbn [length] in H. destruct (take_all_last (d :: r'') ltac:(cbn [length]; lia) ltac:(discriminate)) as (x & Hx & Hdx).
    exists x. split; [|exact Hdx]. rewrite !last_char_cons by discriminate. exact Hx.
  - destruct (is_digit s) eqn:Ed; [|cbn [length] in H; lia]. cbn [length] in H.
    destruct (take_all_last (s :: r') ltac:(cbn [length]; lia) ltac:(discriminate)) as (x & Hx & Hdx).
    exists x. split; [|exact Hdx]. rewrite last_char_cons by discriminate. exact Hx.
Qed.

Lemma digits_all_last : forall t d, digits_len d t = length t -> t <> [] ->
  exists x, last_char t = Some x /\ (is_digit x || (x =? 46)%N) = true.
Proof.
  induction t as [|c r IH]; intros d H Hne; [congruence|]. cbn [digits_len length] in H.
  destruct ((c =? 46)%N && negb d) eqn:E1.
  - destruct r as [|c2 r2]; [exists c; split; [reflexivity|]; apply andb_prop in E1 as [E _]; rewrite E; apply Bool.orb_true_r|].
    destruct (IH true ltac:(lia) ltac:(discriminate)) as (x & Hx & Hdx). exists x. split; [rewrite last_char_cons by discriminate; exact Hx|exact Hdx].
  - destruct (is_digit c) eqn:E2.
    + destruct r as [|c2 r2]; [exists c; split; [reflexivity|rewrite E2; reflexivity]|].
      destruct (IH d ltac:(lia) ltac:(discriminate)) as (x & Hx & Hdx). exists x. split; [rewrite last_char_cons by discriminate; exact Hx|exact Hdx].
    + destruct (exponent_all_last (c :: r) H ltac:(discriminate)) as (x & Hx & Hdx). exists x. split; [exact Hx|rewrite Hdx; reflexivity].
Qed.

Lemma digits_zeros k rest : digits_len false (repeat 48%N k ++ rest) = k + digits_len false rest.
Proof. induction k as [|k IH]; cbn [repeat app]; [reflexivity|]. cbn [digits_len]. change ((48 =? 46)%N && negb false) with false. change (is_digit 48) with true. rewrite IH. reflexivity. Qed.

Lemma digits_head c r : 1 <= digits_len false (c :: r) -> (c =? 46)%N = true \/ is_digit c = true \/ ((c =? 101)%N || (c =? 69)%N) = true.
Proof.
  cbn [digits_len]. cbn [negb]. rewrite Bool.andb_true_r. destruct (c =? 46)%N; [left; reflexivity|]. destruct (is_digit c); [right; left; reflexivity|].
  unfold exponent_len. destruct ((c =? 101)%N || (c =? 69)%N); [right; right; reflexivity|lia].
Qed.

Lemma normalized_num_text t : digits_len false t = length t -> t <> [] -> is_num_text (normalize_number t) = true.
Proof.
  intros Hall Hne. destruct (normalize_spec t) as (k & rest & E & Hh & ->).
  assert (Hrest : digits_len false rest = length rest).
  { rewrite E, digits_zeros, app_length, repeat_length in Hall. lia. }
  destruct rest as [|c r].
  - reflexivity.
  - assert (Hlast : exists x, last_char (c :: r) = Some x /\ (is_digit x || (x =? 46)%N) = true) by (apply (digits_all_last (c :: r) false Hrest); discriminate).
    destruct Hlast as (x & Hx & Hdx).
    destruct ((c =? 46)%N || (c =? 101)%N || (c =? 69)%N) eqn:Ec.
    + unfold is_num_text. rewrite <- digits_false_stages by reflexivity.
      change (48%N :: c :: r) with (repeat 48%N 1 ++ c :: r). rewrite digits_zeros, Hrest. cbn [repeat app length].
      rewrite Nat.eqb_refl. change (is_digit 48) with true. cbn [andb].
      rewrite last_char_cons by discriminate. rewrite Hx, Hdx. reflexivity.
    + assert (Hd : is_digit c = true).
      { destruct (digits_head c r ltac:(rewrite Hrest; cbn [length]; lia)) as [H|[H|H]]; [rewrite H in Ec; discriminate|exact H|].
        apply Bool.orb_true_iff in H as [H|H]; rewrite H in Ec; rewrite ?Bool.orb_true_r in Ec; discriminate. }
      unfold is_num_text. rewrite <- digits_false_stages by exact Hd. rewrite Hrest, Nat.eqb_refl, Hd. cbn [andb]. rewrite Hx, Hdx. reflexivity.
Qed.

Lemma consumed_text l : 1 <= digits_len false l ->
  let t := firstn (digits_len false l) l in t <> [] /\ digits_len false t = length t.
Proof.
  intros H1 t. subst t. split.
  - destruct l as [|c r]; [inversion H1|]. destruct (digits_len false (c :: r)); [lia|]. discriminate.
  - rewrite digits_len_firstn by lia. rewrite firstn_length. pose proof (digits_len_le l false). lia.
Qed.

Lemma lex_number_value b r v n : (is_digit b || (b =? 46)%N) = true -> lex_number (b :: r) = Tok KNumber v n -> is_num_text v = true.
Proof.
  intros Hb. destruct (lex_number_viewP b r Hb) as [x r' Hx|r' _|l H1]; intros H.
  - cbv zeta in H. destruct (take_while is_hex_digit r'); [discriminate|]. destruct (_ <? _)%N; [|discriminate]. injection H as <- _.
    unfold N_to_dec. apply digits_num_text; [apply dec_digits_digits; reflexivity|apply dec_digits_nonempty; lia].
  - discriminate.
  - injection H as <- _. destruct (consumed_text l H1) as [Hne Hall]. apply normalized_num_text; assumption.
Qed.

Lemma covers_tok_ok off l ts : covers off l ts -> all_tok_ok ts.
Proof.
  induction 1 as [off|off l k v n ts Hne Hlex _ IH|off l n ts _ _ _ _ IH]; [constructor| |exact IH].
  constructor; [|exact IH]. destruct (lex1_ident_or_number l k v n Hne Hlex) as [Hid Hnum]. split; cbn [tkind tvalue]; intros ->.
  - destruct (Hnum eq_refl) as (b & r & -> & Hb & Hl). eapply lex_number_value; eassumption.
  - destruct (Hid eq_refl) as (b & r & -> & Hb & Hl). eapply ident_value_word; eassumption.
Qed.

Theorem scan_tok_ok s : all_tok_ok (scan s).
Proof. eapply covers_tok_ok. apply scan_covers. Qed.

Theorem parsed_stmts_lex s ss : parse s = ParseOk ss -> stmts_lex ss.
Proof. intros Hp. eapply prog_tokok; [apply parse_sound; exact Hp|apply scan_tok_ok]. Qed.

(** The bytes [Compile] returns lex, under the dialect's lexer, into the token list the pieces
    denote.  Premises: no parameters (a parameter value is spliced as raw text) and no name of
    the program is an SQL keyword where it is written unquoted (finding F1). *)
Theorem compile_lexes s ss ps : parse s = ParseOk ss -> Forall names_ok_stmt ss ->
  compile [] s = COk ps -> exists ts, ptoks ps = Some ts /\ sql_lex ClickHouse (render ps) = Some ts.
Proof.
  intros Hp Hn H. unfold compile in H. rewrite Hp in H.
  destruct (compile_stmts s [] ss) as [ps'|] eqn:Hc; [|discriminate]. injection H as ->.
  eapply compile_bytes_lex; [|eapply parsed_stmts_lex; exact Hp|exact Hc].
  eapply parsed_stmts_wf; [apply parse_sound; exact Hp|exact Hn].
Qed.

(** the bytes returned lex into tokens that read back as the statement whose denotation is
    that of the PQL program *)
Theorem compile_bytes_reread s ss ps : parse s = ParseOk ss -> Forall names_ok_stmt ss -> compile [] s = COk ps ->
  exists sc t subs q rctes,
    stmt_loop [] None ss = Ok (sc, Some t) /\ split_queries sc [] t = Ok subs /\ rev subs = q :: rctes /\
    let '(names, vals) := let_vals [] (fun _ => XWord []) false ss in
    exists ts, sql_lex ClickHouse (render ps) = Some ts /\
      Conv (fun fx => read_stmt fx ts)
           (map (fun sq => (sq_name sq, den_select s sc vals sq)) (rev rctes), den_select s sc vals q).
Proof.
  intros Hp Hn Hc. destruct (compile_lexes s ss ps Hp Hn Hc) as (ts & Hts & Hlex).
  destruct (compile_rereads s ss ps Hp Hn Hc) as (sc & t & subs & q & rctes & H1 & H2 & H3 & H4).
  exists sc, t, subs, q, rctes. repeat split; try assumption.
  destruct (let_vals [] (fun _ => XWord []) false ss) as [names vals]. destruct H4 as (ts' & Hts' & Hconv).
  exists ts. split; [exact Hlex|]. rewrite Hts in Hts'. injection Hts' as <-. exact Hconv.
Qed.
