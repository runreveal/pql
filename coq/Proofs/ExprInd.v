(** * Induction on expressions and on operators (both nest through lists, so the generated
    principles are too weak), [Forall] for the hand-written recursion through such lists, and
    the equality test on names. *)
From PQL Require Import Model.Ast.
Local Open Scope list_scope.

Section ExprInd.
Variable P : expr -> Prop.
Hypothesis HQual : forall ps, P (EQual ps).
Hypothesis HBin : forall x os op y, P x -> P y -> P (EBin x os op y).
Hypothesis HUnary : forall os op x, P x -> P (EUnary os op x).
Hypothesis HIn : forall x i lp vs rp, P x -> Forall P vs -> P (EIn x i lp vs rp).
Hypothesis HParen : forall lp x rp, P x -> P (EParen lp x rp).
Hypothesis HLit : forall vs k v, P (ELit vs k v).
Hypothesis HCall : forall f lp args rp, Forall P args -> P (ECall f lp args rp).
Hypothesis HIndex : forall x lb i rb, P x -> P i -> P (EIndex x lb i rb).

Fixpoint expr_ind' (e : expr) : P e :=
  match e with
  | EQual ps => HQual ps
  | EBin x os op y => HBin x os op y (expr_ind' x) (expr_ind' y)
  | EUnary os op x => HUnary os op x (expr_ind' x)
  | EIn x i lp vs rp =>
    HIn x i lp vs rp (expr_ind' x)
      ((fix go (l : list expr) : Forall P l :=
          match l with [] => Forall_nil P | a :: r => Forall_cons a (expr_ind' a) (go r) end) vs)
  | EParen lp x rp => HParen lp x rp (expr_ind' x)
  | ELit vs k v => HLit vs k v
  | ECall f lp args rp =>
    HCall f lp args rp
      ((fix go (l : list expr) : Forall P l :=
          match l with [] => Forall_nil P | a :: r => Forall_cons a (expr_ind' a) (go r) end) args)
  | EIndex x lb i rb => HIndex x lb i rb (expr_ind' x) (expr_ind' i)
  end.
End ExprInd.

Lemma str_eqb_refl s : str_eqb s s = true.
Proof. induction s as [|c r IH]; cbn [str_eqb]; [reflexivity|]. rewrite N.eqb_refl. exact IH. Qed.

Lemma str_eqb_eq a : forall b, str_eqb a b = true <-> a = b.
Proof.
  induction a as [|x a IH]; intros [|y b]; cbn [str_eqb]; split; try congruence; try discriminate.
  - intros H. apply andb_prop in H as [H1 H2]. apply N.eqb_eq in H1. apply IH in H2. congruence.
  - intros [= -> ->]. rewrite N.eqb_refl. apply IH. reflexivity.
Qed.

Lemma str_eqb_sym a b : str_eqb a b = str_eqb b a.
Proof.
  destruct (str_eqb a b) eqn:E.
  - apply str_eqb_eq in E. subst. symmetry. apply str_eqb_refl.
  - destruct (str_eqb b a) eqn:E2; [|reflexivity]. apply str_eqb_eq in E2. subst. rewrite str_eqb_refl in E. discriminate.
Qed.

Lemma str_eqb_neq a b : str_eqb a b = false <-> a <> b.
Proof.
  split.
  - intros H ->. rewrite str_eqb_refl in H. discriminate.
  - intros H. destruct (str_eqb a b) eqn:E; [|reflexivity]. apply str_eqb_eq in E. contradiction.
Qed.

(** [not_join o]: the operator [o] is not a join.  (The boolean under it is what
    PipelineFacts.v names [is_join].) *)
Notation not_join o := (match o with OJoin _ _ _ _ _ _ _ _ _ _ _ => true | _ => false end = false) (only parsing).

Section OpInd.
Variable P : operator -> Prop.
Hypothesis Hother : forall o, not_join o -> P o.
Hypothesis Hjoin : forall p k ks ka fl lp rsrc rops rp on conds, Forall P rops -> P (OJoin p k ks ka fl lp rsrc rops rp on conds).
Fixpoint operator_ind' (o : operator) : P o :=
  match o with
  | OJoin p k ks ka fl lp rsrc rops rp on conds =>
    Hjoin p k ks ka fl lp rsrc rops rp on conds
      ((fix go (l : list operator) : Forall P l :=
          match l with [] => Forall_nil P | a :: r => Forall_cons a (operator_ind' a) (go r) end) rops)
  | o' => Hother o' (match o' as x return (match x with OJoin _ _ _ _ _ _ _ _ _ _ _ => True | _ => match x with OJoin _ _ _ _ _ _ _ _ _ _ _ => true | _ => false end = false end) with
                    | OJoin _ _ _ _ _ _ _ _ _ _ _ => I | _ => eq_refl end)
  end.
End OpInd.

(** predicates on trees recurse through lists with a local [fix all]; that is [Forall] *)
Lemma fix_all_Forall {A} (P : A -> Prop) l :
  (fix all (l : list A) : Prop := match l with [] => True | a :: r => P a /\ all r end) l <-> Forall P l.
Proof.
  induction l as [|a r IH]; [split; [constructor|exact (fun _ => I)]|]. split.
  - intros [H1 H2]. constructor; [exact H1|apply IH; exact H2].
  - intros H. inversion H; subst. split; [assumption|apply IH; assumption].
Qed.
