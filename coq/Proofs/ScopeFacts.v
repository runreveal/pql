(** * The output depends on the scope only through the names the program uses (property C06,
    Props/C06.v).
    [uses_e k e]: does an unquoted, unqualified identifier spelled [k] occur in [e] in expression
    position (function names do not count).  If two scopes agree on every name but [k] and the
    program never uses [k], they give the same output.  A used parameter is inserted verbatim. *)
From PQL Require Import Model.Compile Proofs.ExprInd Proofs.WriterEqns Proofs.SplitSteps Proofs.PipelineFacts.
Local Open Scope list_scope.
Local Open Scope nat_scope.
Local Notation length := List.length (only parsing).

Definition names_ident (k : str) (ps : list ident) : bool :=
  match ps with [p] => negb (iquoted p) && str_eqb (iname p) k | _ => false end.

Fixpoint uses_e (k : str) (e : expr) : bool :=
  match e with
  | EQual ps => names_ident k ps
  | EBin x _ _ y => uses_e k x || uses_e k y
  | EUnary _ _ x => uses_e k x
  | EIn x _ _ vs _ => uses_e k x || existsb (uses_e k) vs
  | EParen _ x _ => uses_e k x
  | ELit _ _ _ => false
  | ECall _ _ args _ => existsb (uses_e k) args
  | EIndex x _ i _ => uses_e k x || uses_e k i
  end.

Definition uses_st k (t : sort_term) := uses_e k (st_x t).
Definition uses_pc k (c : proj_col) := match pc_x c with Some x => uses_e k x | None => names_ident k [pc_name c] end.
Definition uses_ec k (c : ext_col) := uses_e k (ec_x c).

(** a join without conditions (the parser builds none) is compiled as `on true` *)
Definition uses_conds (k : str) (conds : list expr) : bool :=
  match conds with [] => names_ident k [mkIdent w_true None false] | _ => existsb (uses_e k) conds end.

Fixpoint uses_op (k : str) (o : operator) : bool :=
  match o with
  | OCount _ _ | OAs _ _ _ | ORender _ _ _ _ _ _ _ => false
  | OWhere _ _ x => uses_e k x
  | OSort _ _ ts => existsb (uses_st k) ts
  | OTake _ _ n => uses_e k n
  | OTop _ _ n _ c => uses_e k n || uses_st k c
  | OProject _ _ cs => existsb (uses_pc k) cs
  | OExtend _ _ cs => existsb (uses_ec k) cs
  | OSummarize _ _ cs _ gs => existsb (uses_ec k) cs || existsb (uses_ec k) gs
  | OJoin _ _ _ _ _ _ _ rops _ _ conds => existsb (uses_op k) rops || uses_conds k conds
  end.

Definition uses_stmt (k : str) (s : stmt) : bool :=
  match s with SLet _ _ _ x => uses_e k x | STab t => existsb (uses_op k) (tops t) end.

Definition agree_except (k : str) (sc sc' : scope) : Prop := forall n, n <> k -> scope_get sc n = scope_get sc' n.

Lemma existsb_false_Forall {A} (f : A -> bool) l : existsb f l = false -> Forall (fun x => f x = false) l.
Proof. induction l as [|a r IH]; cbn [existsb]; intros H; constructor; apply Bool.orb_false_iff in H as [H1 H2]; auto. Qed.

Lemma map_unused {A B} (u : A -> bool) (f f' : A -> B) l : (forall a, u a = false -> f a = f' a) -> existsb u l = false -> map f l = map f' l.
Proof. intros H Hl. apply map_ext_Forall. apply existsb_false_Forall in Hl. eapply Forall_impl; [|exact Hl]. exact H. Qed.

Section Expr.
Variables (k : str) (sc sc' : scope) (m : mode).
Hypothesis Hag : agree_except k sc sc'.

Theorem wx_unused : forall e w, uses_e k e = false -> wx (mkCtx sc m) w e = wx (mkCtx sc' m) w e.
Proof.
  assert (Hmap : forall w l, Forall (fun e => forall w, uses_e k e = false -> wx (mkCtx sc m) w e = wx (mkCtx sc' m) w e) l ->
            existsb (uses_e k) l = false -> map (wx (mkCtx sc m) w) l = map (wx (mkCtx sc' m) w) l).
  { intros w l H Hu. apply existsb_false_Forall in Hu. apply map_ext_Forall.
    rewrite Forall_forall in H, Hu |- *. intros x Hx. apply H; [exact Hx|apply Hu; exact Hx]. }
  induction e using expr_ind'; intros w Hu; cbn [uses_e] in Hu.
  - (* the scope is consulted for a single unquoted name only *)
    rewrite !wx_qual. destruct ps as [|p [|p2 r]]; try reflexivity.
    cbn [names_ident] in Hu. destruct (iquoted p) eqn:Eq; cbn [negb andb c_scope] in *; [reflexivity|].
    rewrite (Hag (iname p)); [reflexivity|]. intros E. rewrite E, str_eqb_refl in Hu. discriminate.
  - apply Bool.orb_false_iff in Hu as [H1 H2]. rewrite !wx_bin. unfold plain_eq. cbn [c_mode].
    destruct (bin_template _ op); [rewrite (IHe1 _ H1), (IHe2 _ H2)|]; reflexivity.
  - rewrite !wx_unary, (IHe _ Hu). reflexivity.
  - apply Bool.orb_false_iff in Hu as [H1 H2]. rewrite !wx_in, (IHe _ H1), (Hmap _ _ H H2). reflexivity.
  - rewrite !wx_paren. apply IHe. exact Hu.
  - do 2 rewrite wx_lit. reflexivity.
  -
    rewrite !wx_call, (Hmap _ _ H Hu). destruct (known_func (iname f)) as [[wr np]|]; [|reflexivity].
    replace (wargs (mkCtx sc m) (writer_template wr) 0 args) with (wargs (mkCtx sc' m) (writer_template wr) 0 args); [reflexivity|].
    apply existsb_false_Forall in Hu. generalize 0.
    induction H as [|a r Ha Hr IHr]; intros i; [reflexivity|]. inversion Hu as [|? ? Hu1 Hu2]; subst.
    cbn [wargs]. unfold warg. rewrite (IHr Hu2), (Ha WMaybe Hu1), (Ha WPlain Hu1). reflexivity.
  - apply Bool.orb_false_iff in Hu as [H1 H2]. rewrite !wx_index, (IHe1 _ H1), (IHe2 _ H2). reflexivity.
Qed.
End Expr.

Section Prog.
Variables (k : str) (sc sc' : scope).
Hypothesis Hag : agree_except k sc sc'.

Lemma bare_name_unused e : uses_e k e = false -> bare_name sc e = bare_name sc' e.
Proof.
  destruct e as [ps| | | | | | |]; try reflexivity. destruct ps as [|p [|p2 r]]; try reflexivity.
  cbn [uses_e names_ident bare_name]. destruct (iquoted p); cbn [negb andb]; [reflexivity|]. intros Hu.
  rewrite (Hag (iname p)); [reflexivity|]. intros E. rewrite E, str_eqb_refl in Hu. discriminate.
Qed.

Lemma rewrite_cond_unused e : uses_e k e = false ->
  rewrite_simple_cond sc e = rewrite_simple_cond sc' e /\ uses_e k (rewrite_simple_cond sc' e) = false.
Proof.
  intros Hu. unfold rewrite_simple_cond. rewrite (bare_name_unused e Hu). split; [reflexivity|].
  destruct (bare_name sc' e); [reflexivity|exact Hu].
Qed.

Lemma build_join_cond_unused conds : uses_conds k conds = false ->
  build_join_cond sc conds = build_join_cond sc' conds /\ uses_e k (build_join_cond sc' conds) = false.
Proof.
  intros H.
  assert (Hall : Forall (fun c => uses_e k c = false) conds) by (destruct conds; [constructor|apply existsb_false_Forall; exact H]).
  split.
  - rewrite <- (map_id conds) at 1. apply (build_join_cond_map sc sc' (fun e => e) (fun e => e)); try reflexivity.
    eapply Forall_impl; [|exact Hall]. intros c Hc. apply (rewrite_cond_unused c Hc).
  - apply build_join_cond_ind.
    + intros ->. exact H.
    + intros x y Hx Hy. cbn [uses_e]. rewrite Hx, Hy. reflexivity.
    + eapply Forall_impl; [|exact Hall]. intros c Hc. apply (rewrite_cond_unused c Hc).
Qed.

Theorem split_op_unused : forall o, uses_op k o = false -> forall ds src dst, split_op sc ds src dst o = split_op sc' ds src dst o.
Proof.
  apply (split_op_ext sc sc' (fun o => uses_op k o = false)).
  intros p k0 ks ka fl lp rsrc rops rp on conds Hu. cbn [uses_op] in Hu. apply Bool.orb_false_iff in Hu as [Hr Hc].
  destruct (build_join_cond_unused conds Hc) as [Eb Ub].
  split; [apply existsb_false_Forall; exact Hr|]. split; [exact Eb|apply (wx_unused k sc sc' ModeJoin Hag _ WPlain Ub)].
Qed.

Lemma split_queries_unused t : existsb (uses_op k) (tops t) = false -> split_queries sc [] t = split_queries sc' [] t.
Proof.
  intros Hu. rewrite !split_queries_eq. cbn [length]. rewrite (fold_res_ext (split_op sc 0 (tsrc t)) (split_op sc' 0 (tsrc t))); [reflexivity|].
  apply existsb_false_Forall in Hu. eapply Forall_impl; [|exact Hu]. intros o Ho d. apply split_op_unused. exact Ho.
Qed.

Definition uses_subq (s : subq) : bool :=
  (match sq_op s with Some o => (if is_join o then false else uses_op k o) | None => false end)
  || (match sq_sort s with Some ts => existsb (uses_st k) ts | None => false end)
  || (match sq_take s with Some n => uses_e k n | None => false end).

Let c := mkCtx sc ModeDefault.
Let c' := mkCtx sc' ModeDefault.

Lemma wexpr_unused e : uses_e k e = false -> wexpr c e = wexpr c' e.
Proof. apply (wx_unused k sc sc' ModeDefault Hag). Qed.

Lemma ext_cols_unused source cols : existsb (uses_ec k) cols = false -> write_ext_cols source c cols = write_ext_cols source c' cols.
Proof.
  intros H. unfold write_ext_cols. apply (f_equal sequence), (map_unused (uses_ec k)); [|exact H].
  intros col Hc. rewrite (wexpr_unused _ Hc). reflexivity.
Qed.

Lemma cols_unused l : existsb (uses_ec k) l = false ->
  map (fun col : ext_col => wexpr c (ec_x col)) l = map (fun col : ext_col => wexpr c' (ec_x col)) l.
Proof. apply map_unused. intros col. apply wexpr_unused. Qed.

Lemma subq_body_unused source s : match sq_op s with Some o => if is_join o then false else uses_op k o | None => false end = false ->
  subq_body source c s = subq_body source c' s.
Proof.
  unfold subq_body. destruct (sq_op s) as [[]|]; cbn [is_join uses_op]; intros Ho;
    try match goal with |- ?x = ?x => reflexivity end. (* a failing [reflexivity] would unfold the writer *)
  - rewrite (wexpr_unused _ Ho). reflexivity.
  - apply (f_equal2 bind); [|reflexivity]. apply (f_equal sequence), (map_unused (uses_pc k)); [|exact Ho].
    intros col Hc. unfold uses_pc in Hc. destruct (pc_x col) as [x|]; [rewrite (wexpr_unused _ Hc)|rewrite (wexpr_unused (EQual [pc_name col]) Hc)]; reflexivity.
  - rewrite (ext_cols_unused source _ Ho). reflexivity.
  - apply Bool.orb_false_iff in Ho as [Hc Hg]. rewrite (ext_cols_unused source _ Hc), (ext_cols_unused source _ Hg), (cols_unused _ Hg). reflexivity.
Qed.

Theorem write_subq_unused source s : uses_subq s = false -> write_subq source c s = write_subq source c' s.
Proof.
  unfold uses_subq. intros H. apply Bool.orb_false_iff in H as [H Ht]. apply Bool.orb_false_iff in H as [Ho Hs].
  rewrite !write_subq_eq, (subq_body_unused source s Ho).
  replace (subq_sort c s) with (subq_sort c' s); [replace (subq_take c s) with (subq_take c' s); [reflexivity|]|].
  - unfold subq_take. destruct (sq_take s) as [n|]; [|reflexivity]. rewrite (wexpr_unused _ Ht). reflexivity.
  - unfold subq_sort. destruct (sq_sort s) as [ts|]; [|reflexivity]. unfold write_sort.
    apply (f_equal2 bind); [|reflexivity]. apply (f_equal sequence), (map_unused (uses_st k)); [|exact Hs].
    intros t0 Ht0. unfold uses_st in Ht0. rewrite (wexpr_unused _ Ht0). reflexivity.
Qed.

Lemma write_ctes_unused source : forall l, Forall (fun s => uses_subq s = false) l -> write_ctes source c l = write_ctes source c' l.
Proof.
  induction 1 as [|s r Hs Hr IH]; cbn [write_ctes]; [reflexivity|]. rewrite (write_subq_unused source s Hs), IH. reflexivity.
Qed.

Lemma split_queries_uses t subs : existsb (uses_op k) (tops t) = false -> split_queries sc' [] t = Ok subs ->
  Forall (fun s => uses_subq s = false) subs.
Proof.
  intros Hu. apply existsb_false_Forall in Hu. revert Hu.
  apply (split_queries_Forall sc' (fun s => uses_subq s = false) (fun o => uses_op k o = false)).
  - intros dst ds src. rewrite chain_subquery_eq. reflexivity.
  - intros o s Hj Ho Hs. unfold uses_subq in *. apply Bool.orb_false_iff in Hs as [Hs H3]. apply Bool.orb_false_iff in Hs as [H1 H2].
    destruct o; try discriminate Hj; cbn [decorate sq_op sq_sort sq_take is_join uses_op existsb] in *; rewrite ?Ho, ?H1, ?H2, ?H3; try reflexivity.
    apply Bool.orb_false_iff in Ho as [Hn Hc]. rewrite Hn, Hc. reflexivity.
  - reflexivity.
  - intros p k0 ks ka fl lp rsrc rops rp on conds Hu. cbn [uses_op] in Hu. apply Bool.orb_false_iff in Hu as [Hr _].
    apply existsb_false_Forall. exact Hr.
Qed.
End Prog.

Lemma write_query_unused k sc sc' source t : agree_except k sc sc' -> existsb (uses_op k) (tops t) = false ->
  write_query source sc t = write_query source sc' t.
Proof.
  intros Hag Ht. unfold write_query. rewrite (split_queries_unused k sc sc' Hag t Ht).
  destruct (split_queries sc' [] t) as [subs|] eqn:Es; cbn [bind]; [|reflexivity].
  pose proof (split_queries_uses k sc' t subs Ht Es) as Hsubs.
  apply Forall_rev in Hsubs. destruct (rev subs) as [|q rc]; [reflexivity|]. inversion Hsubs as [|? ? Hq Hrc]; subst.
  apply Forall_rev in Hrc.
  rewrite (write_ctes_unused k sc sc' Hag source _ Hrc), (write_subq_unused k sc sc' Hag source q Hq). reflexivity.
Qed.

Lemma stmt_loop_unused k : forall ss sc sc' q, agree_except k sc sc' -> Forall (fun s => uses_stmt k s = false) ss ->
  match stmt_loop sc q ss, stmt_loop sc' q ss with
  | Ok (s1, q1), Ok (s1', q1') => agree_except k s1 s1' /\ q1 = q1'
  | Err p, Err p' => p = p'
  | _, _ => False
  end.
Proof.
  induction ss as [|s r IH]; intros sc sc' q Hag Hu; cbn [stmt_loop]; [split; [exact Hag|reflexivity]|].
  inversion Hu as [|? ? Hs Hr]; subst. destruct s as [kw name asp x|t].
  - destruct q as [t'|]; [apply IH; assumption|]. cbn [uses_stmt] in Hs. unfold woperand.
    rewrite (wx_unused k sc sc' ModeLet Hag x WOperand Hs).
    destruct (wx (mkCtx sc' ModeLet) WOperand x) as [v|]; cbn [bind]; [|reflexivity].
    apply IH; [|exact Hr]. intros n Hn. cbn [scope_get]. destruct (str_eqb (iname name) n); [reflexivity|apply Hag; exact Hn].
  - destruct q as [t'|]; [reflexivity|]. apply IH; assumption.
Qed.

Theorem compile_stmts_unused k source params params' ss :
  agree_except k (map (fun kv : str * str => (fst kv, [PRaw (snd kv)])) params) (map (fun kv : str * str => (fst kv, [PRaw (snd kv)])) params') ->
  Forall (fun s => uses_stmt k s = false) ss ->
  compile_stmts source params ss = compile_stmts source params' ss.
Proof.
  intros Hag Hu. rewrite !compile_stmts_eq.
  pose proof (stmt_loop_unused k ss _ _ None Hag Hu) as HL.
  destruct (stmt_loop (map _ params) None ss) as [[s1 q1]|] eqn:E1, (stmt_loop (map _ params') None ss) as [[s1' q1']|] eqn:E2;
    cbn [bind fst snd] in *; try contradiction; [|congruence].
  destruct HL as [Hag1 <-]. destruct q1 as [t|]; [|reflexivity].
  apply (write_query_unused k _ _ source t Hag1). rewrite Forall_forall in Hu. exact (Hu _ (stmt_loop_query _ _ _ _ E1)).
Qed.

(** C06: an unused parameter does not change the output, wherever it stands in the list *)
Corollary unused_parameter k v source pre post ss : Forall (fun s => uses_stmt k s = false) ss ->
  compile_stmts source (pre ++ (k, v) :: post) ss = compile_stmts source (pre ++ post) ss.
Proof.
  intros Hu. apply (compile_stmts_unused k); [|exact Hu].
  intros n Hn. rewrite !map_app. cbn [map fst snd].
  induction pre as [|[k0 v0] r IH]; cbn [map app scope_get fst snd].
  - destruct (str_eqb k n) eqn:E; [apply str_eqb_eq in E; congruence|reflexivity].
  - destruct (str_eqb k0 n); [reflexivity|exact IH].
Qed.

(** whatever the wrapping, an unquoted unqualified identifier bound to a parameter text is
    written as exactly that text *)
Theorem parameter_verbatim sc m w p v : iquoted p = false -> scope_get sc (iname p) = Some [PRaw v] ->
  wx (mkCtx sc m) w (EQual [p]) = Ok [PRaw v] /\ render [PRaw v] = v.
Proof.
  intros Hq Hg. split; [|cbn; apply app_nil_r]. rewrite wx_qual. cbn [c_scope]. rewrite Hq, Hg. reflexivity.
Qed.
