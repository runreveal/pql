(** * The emitted subqueries, evaluated with the SQL reading of their expressions, give the
    pipeline evaluated with PQL's own reading. *)
From PQL Require Import Model.Trans Spec.PqlSem Spec.PipeSem Proofs.MeaningFacts Proofs.PipelineFacts Proofs.JoinFacts.
From Coq Require Import FunctionalExtensionality.
Local Open Scope list_scope.

Definition bound_in (sc : scope) (n : str) : bool := match scope_get sc n with Some _ => true | None => false end.

Definition ev_sql (F : fenv) (sc : scope) : bool -> env -> expr -> value :=
  fun jm e x => seval F e (trans (bound_in sc) jm x).
Definition ev_pql (F : fenv) (sc : scope) : bool -> env -> expr -> value :=
  fun jm e x => peval F (bound_in sc) jm e x.

(** assumed of pass-through names: those whose meaning the semantics fixes are not aggregates,
    and count is one *)
Definition fenv_ok (F : fenv) : Prop :=
  is_agg F w_coalesce = false /\
  (is_agg F w_lower = false /\ is_agg F w_LOWER = false /\ is_agg F w_UPPER = false) /\
  is_agg F w_count = true /\
  forallb (fun n => negb (is_agg F n)) [p_not; p_isnull; p_isnotnull; p_iff; p_iif; p_strcat; p_tolower; p_toupper; p_nowf; p_countif] = true.

Lemma ev_sql_pql F sc : fenv_ok F -> ev_sql F sc = ev_pql F sc.
Proof.
  intros (H1 & H2 & H3 & H4). unfold ev_sql, ev_pql.
  extensionality jm. extensionality e. extensionality x.
  apply trans_meaning; assumption.
Qed.

Theorem pipeline_semantics F sc source db t subqs :
  fenv_ok F ->
  forallb (fun o => negb (is_join o)) (tops t) = true ->
  split_queries sc [] t = Ok subqs ->
  forall r, run_pipeline F (ev_pql F sc) source sc db t = Some r ->
            eval_statement F (ev_sql F sc) source db subqs = Some r.
Proof.
  intros HF Hnj Hs r Hr. rewrite (ev_sql_pql F sc HF).
  eapply split_queries_denotes_pipeline; [exact Hnj|reflexivity|exact Hs|exact Hr].
Qed.

Theorem pipeline_semantics_joins F sc source db t subqs :
  fenv_ok F ->
  ok (tsrc t) [] (flat_map as_names (tops t)) (flat_map table_names (tops t)) ->
  split_queries sc [] t = Ok subqs ->
  forall r, run_pipeline F (ev_pql F sc) source sc db t = Some r ->
            eval_statement F (ev_sql F sc) source db subqs = Some r.
Proof.
  intros HF Hok Hs r Hr. rewrite (ev_sql_pql F sc HF).
  eapply split_queries_denotes_pipeline_joins; eassumption.
Qed.
