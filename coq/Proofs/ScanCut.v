(** * Scanning across a boundary.  Where no item of [a ++ b] that starts in [a] reaches into [b],
    the two sides are scanned independently; a newline is such a boundary, and so is the start of
    a semicolon token. *)
From PQL Require Import Model.Lexer Proofs.LexerFacts Proofs.LexCut.
From Coq Require Import Lia.
Local Open Scope list_scope.
Local Open Scope nat_scope.

Definition shift_tok (k : nat) (t : token) : token := mkTok (tkind t) (k + tstart t) (k + tend t) (tvalue t).

Lemma scan_eq s : scan s = scan_at 0 s.
Proof. reflexivity. Qed.

Lemma scan_at_shift k off l : scan_at (k + off) l = map (shift_tok k) (scan_at off l).
Proof.
  revert k. apply (scan_at_ind (fun off l ts => forall k, scan_at (k + off) l = map (shift_tok k) ts)); clear off l.
  - reflexivity.
  - intros off l kd v n ts Hne Hlex _ IH k. rewrite scan_at_step, Hlex by exact Hne. cbn [map].
    replace (n + (k + off)) with (k + (n + off)) by lia. rewrite IH. reflexivity.
  - intros off l n ts Hne Hlex _ IH k. rewrite scan_at_step, Hlex by exact Hne.
    replace (n + (k + off)) with (k + (n + off)) by lia. apply IH.
Qed.

(** every item of [a ++ b] that starts inside [a] ends inside [a] *)
Inductive cut_ok (b : str) : str -> Prop :=
| cut_nil : cut_ok b []
| cut_step a : a <> [] -> item_len (lex1 (a ++ b)) <= length a ->
    cut_ok b (skipn (item_len (lex1 a)) a) -> cut_ok b a.

Theorem scan_app b a : cut_ok b a -> forall off, scan_at off (a ++ b) = scan_at off a ++ scan_at (length a + off) b.
Proof.
  induction 1 as [|a Hne Hle _ IH]; intros off; [reflexivity|].
  pose proof (lex1_progress a Hne) as Hp.
  rewrite (scan_at_step off (a ++ b)) by (destruct a; [congruence|discriminate]).
  rewrite (scan_at_step off a Hne), (lex1_prefix a b Hle).
  set (m := item_len (lex1 a)) in *.
  assert (Hrest : scan_at (m + off) (skipn m (a ++ b)) = scan_at (m + off) (skipn m a) ++ scan_at (length a + off) b).
  { rewrite skipn_app_le, IH, skipn_length by lia. do 2 f_equal. lia. }
  destruct (lex1 a) as [k v n|n]; subst m; cbn [item_len] in *; [cbn [app]; f_equal|]; exact Hrest.
Qed.

Lemma cut_ok_nl b a : cut_ok b (a ++ [10%N]).
Proof.
  remember (length a) as n eqn:En. revert a En. induction n as [n IH] using lt_wf_ind. intros a ->.
  assert (Hne : a ++ [10%N] <> []) by apply app_cons_not_nil.
  pose proof (lex1_progress _ Hne) as Hp. rewrite app_length in Hp. cbn [length] in Hp.
  apply cut_step; [exact Hne| |].
  - pose proof (lex1_line ((a ++ [10%N]) ++ b) ltac:(rewrite <- app_assoc; apply app_cons_not_nil)) as Hl.
    rewrite <- app_assoc in *. pose proof (comment_len_app_nl a b). rewrite app_length. cbn [app length] in *. lia.
  - set (m := item_len (lex1 (a ++ [10%N]))) in *. destruct (Nat.le_gt_cases m (length a)) as [H|H].
    + rewrite skipn_app_le by exact H. apply (IH (length (skipn m a))); [rewrite skipn_length; lia|reflexivity].
    + rewrite skipn_all2 by (rewrite app_length; cbn [length]; lia). constructor.
Qed.

Theorem scan_nl a b : scan (a ++ 10%N :: b) = scan (a ++ [10%N]) ++ map (shift_tok (S (length a))) (scan b).
Proof.
  rewrite (scan_eq (a ++ 10%N :: b)), (scan_eq (a ++ [10%N])), (scan_eq b).
  change (a ++ 10%N :: b) with (a ++ [10%N] ++ b). rewrite app_assoc, (scan_app b _ (cut_ok_nl b a)).
  rewrite app_length, <- scan_at_shift. cbn [length]. do 2 f_equal. lia.
Qed.

Definition semi_tok (p : nat) : token := mkTok KSemi p (S p) [].

(** a token that starts where [a] ends: no item before it reaches further *)
Lemma cut_ok_start b a : forall off, (exists t, In t (scan_at off (a ++ b)) /\ tstart t = length a + off) -> cut_ok b a.
Proof.
  remember (length a) as n eqn:En. revert a En. induction n as [n IH] using lt_wf_ind. intros a -> off (t & Hin & Ht).
  destruct a as [|c0 r0] eqn:Ea; [constructor|]. rewrite <- Ea in *.
  assert (Hne : a <> []) by (rewrite Ea; discriminate). assert (Hne' : a ++ b <> []) by (rewrite Ea; discriminate).
  assert (Hla : 1 <= length a) by (rewrite Ea; cbn [length]; lia). clear Ea c0 r0.
  rewrite scan_at_step in Hin by exact Hne'.
  pose proof (lex1_progress _ Hne') as Hp. set (m := item_len (lex1 (a ++ b))) in *.
  assert (Hlater : forall t', In t' (scan_at (m + off) (skipn m (a ++ b))) -> m + off <= tstart t')
    by (intros t'; apply toks_within_start with (1 := scan_at_within _ _)).
  assert (Hin' : In t (scan_at (m + off) (skipn m (a ++ b))))
    by (destruct (lex1 (a ++ b)) as [k v n0|n0]; subst m; cbn [item_len] in *; [destruct Hin as [E|Hin]; [subst t; cbn [tstart] in Ht; lia|exact Hin]|exact Hin]).
  assert (Hm : m <= length a) by (specialize (Hlater t Hin'); lia).
  apply cut_step; [exact Hne|exact Hm|]. rewrite <- (lex1_prefix a b Hm). fold m.
  apply (IH (length (skipn m a))) with (off := m + off); [rewrite skipn_length; lia|reflexivity|].
  exists t. rewrite <- skipn_app_le by exact Hm. split; [exact Hin'|rewrite skipn_length; lia].
Qed.

Theorem scan_semi a b : (exists t, In t (scan (a ++ 59%N :: b)) /\ tstart t = length a) ->
  scan (a ++ 59%N :: b) = scan a ++ semi_tok (length a) :: map (shift_tok (S (length a))) (scan b).
Proof.
  intros (t & Hin & Ht). rewrite (scan_eq (a ++ 59%N :: b)), (scan_eq a), (scan_eq b) in *.
  rewrite (scan_app (59%N :: b) a); [|apply (cut_ok_start _ _ 0); exists t; split; [exact Hin|lia]].
  rewrite (scan_at_step _ (59%N :: b)) by discriminate. change (lex1 (59%N :: b)) with (Tok KSemi [] 1). cbn [skipn].
  rewrite <- scan_at_shift. unfold semi_tok. do 3 f_equal; lia.
Qed.
