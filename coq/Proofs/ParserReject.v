(** * C08: a source with an error token (unrecognised character, unterminated string or identifier,
    malformed number) is rejected.  By [parse_sound] every token of a parsed source is in the tree's
    token sequence; the tokens of an expression have a kind of [expr_kind], those of a statement one of
    [stmt_kind].  That no statement token is `;` and no expression token `=` is read off the same tables. *)
From PQL Require Import Spec.FlattenStmt Proofs.ParserSoundStmt.
From Coq Require Import ZArith.
Local Open Scope list_scope.
Local Open Scope nat_scope.

Scheme toks_expr_m := Minimality for toks_expr Sort Prop
  with toks_list_m := Minimality for toks_list Sort Prop
  with toks_args_m := Minimality for toks_args Sort Prop.
Combined Scheme toks_expr_mutind from toks_expr_m, toks_list_m, toks_args_m.

Scheme toks_op_m := Minimality for toks_op Sort Prop
  with toks_ops_m := Minimality for toks_ops Sort Prop.
Combined Scheme toks_op_mutind from toks_op_m, toks_ops_m.

(** A per-item fact passes through [toks_sep] downwards ([sep_items]; [T := fun _ => True] when the
    tokens do not matter) or upwards ([sep_whole]). *)
Lemma sep_items {A} (P : A -> list token -> Prop) (T : list token -> Prop) (Q : A -> Prop) :
  (forall ta c tr, T (ta ++ c :: tr) -> T ta /\ T tr) -> (forall a ta, P a ta -> T ta -> Q a) ->
  forall l ts, toks_sep P l ts -> T ts -> Forall Q l.
Proof.
  intros HT HP l ts H. induction H as [a ta Ha|a ta c r tr Ha _ _ IH]; intros Ht.
  - constructor; [exact (HP _ _ Ha Ht)|constructor].
  - destruct (HT _ _ _ Ht) as [Hta Htr]. constructor; [exact (HP _ _ Ha Hta)|exact (IH Htr)].
Qed.

Lemma sep_whole {A} (P : A -> list token -> Prop) (T : list token -> Prop) :
  (forall ta c tr, tkind c = KComma -> T ta -> T tr -> T (ta ++ c :: tr)) -> (forall a ta, P a ta -> T ta) ->
  forall l ts, toks_sep P l ts -> T ts.
Proof. intros HT HP l ts H. induction H; eauto. Qed.

(** the kinds with a precedence are the binary operators, the signs and `in` *)
Definition expr_kind (k : kind) : bool :=
  (0 <=? op_prec k)%Z ||
  match k with
  | KIdentifier | KQuotedIdentifier | KNumber | KString | KDot | KComma
  | KLParen | KRParen | KLBracket | KRBracket => true
  | _ => false
  end.

Definition stmt_kind (k : kind) : bool :=
  expr_kind k || match k with KAssign | KPipe | KBy => true | _ => false end.

Definition all_kind (P : kind -> bool) (ts : list token) : Prop := Forall (fun t => P (tkind t) = true) ts.

Lemma expr_kind_prec k : (0 <= op_prec k)%Z -> expr_kind k = true.
Proof. intros H. unfold expr_kind. apply Z.leb_le in H. rewrite H. reflexivity. Qed.

Lemma expr_kind_not_assign k : expr_kind k = true -> k <> KAssign.
Proof. intros H ->. discriminate H. Qed.

Lemma stmt_kind_not_error_semi k : stmt_kind k = true -> k <> KError /\ k <> KSemi.
Proof. intros H. split; intros ->; discriminate H. Qed.

Section Kinds.
Variable P : kind -> bool.

Lemma all_kind_nil : all_kind P [].
Proof. constructor. Qed.

Lemma all_kind_cons t ts : all_kind P (t :: ts) <-> P (tkind t) = true /\ all_kind P ts.
Proof. apply Forall_cons_iff. Qed.

Lemma all_kind_app a b : all_kind P (a ++ b) <-> all_kind P a /\ all_kind P b.
Proof. apply Forall_app. Qed.

Lemma kind_tkind k t : tkind t = k -> P k = true -> P (tkind t) = true.
Proof. intros ->. trivial. Qed.

Lemma kind_is_tok k sp t : is_tok k sp t -> P k = true -> P (tkind t) = true.
Proof. intros [-> _]. trivial. Qed.

Lemma kind_kw_tok ws sp t : kw_tok ws sp t -> P KIdentifier = true -> P (tkind t) = true.
Proof. intros [-> _]. trivial. Qed.

Lemma kind_ident_tok i t : ident_tok i t -> P KIdentifier = true -> P KQuotedIdentifier = true -> P (tkind t) = true.
Proof. intros [-> _]. destruct (iquoted i); trivial. Qed.

Lemma sep_kinds {A} (Q : A -> list token -> Prop) l ts :
  toks_sep Q l ts -> (forall a ta, Q a ta -> all_kind P ta) -> P KComma = true -> all_kind P ts.
Proof.
  intros H HQ Hc. apply (sep_whole Q (all_kind P)) with (l := l); [|exact HQ|exact H].
  intros ta c tr Hk Ha Hr. rewrite all_kind_app, all_kind_cons, Hk. auto.
Qed.
End Kinds.

Create HintDb kinds discriminated.
#[export] Hint Resolve all_kind_nil kind_tkind kind_is_tok kind_kw_tok kind_ident_tok sep_kinds expr_kind_prec : kinds.
#[export] Hint Extern 0 (_ = true) => reflexivity : kinds.
#[export] Hint Rewrite all_kind_cons all_kind_app : kinds.

(** The database [kinds] has one hint per shape of premise of a [toks_] constructor.  [by_kinds] proves
    [all_kind P ts] for the token list of one constructor: the two rewrite rules take the list apart,
    and each token or sublist is closed by the hint for its premise (depth 4: [sep_kinds], the item's
    lemma, a table lookup).  [nocore]: [eq_refl] would answer the premise [tkind t = ?k] of [kind_tkind]
    with [tkind t] itself.  [split_alts] splits an alternative of kinds ([te_lit], [te_unary]) first. *)
Ltac split_alts := repeat match goal with H : _ = _ \/ _ = _ |- _ => destruct H; subst end.
Ltac by_kinds := intros; split_alts; autorewrite with kinds; repeat split; eauto 4 with kinds nocore.

Lemma qual_kinds ps ts : toks_qual ps ts -> all_kind expr_kind ts.
Proof. induction 1; by_kinds. Qed.
#[export] Hint Resolve qual_kinds : kinds.

Lemma expr_kinds :
  (forall e ts, toks_expr e ts -> all_kind expr_kind ts) /\
  (forall l ts, toks_list l ts -> all_kind expr_kind ts) /\
  (forall l ts, toks_args l ts -> all_kind expr_kind ts).
Proof. apply toks_expr_mutind; by_kinds. Qed.

Lemma expr_in_stmt ts : all_kind expr_kind ts -> all_kind stmt_kind ts.
Proof. apply Forall_impl. intros t H. unfold stmt_kind. rewrite H. reflexivity. Qed.

Lemma expr_stmt_kinds e ts : toks_expr e ts -> all_kind stmt_kind ts.
Proof. intros H. apply expr_in_stmt, (proj1 expr_kinds e ts H). Qed.

Lemma list_stmt_kinds l ts : toks_list l ts -> all_kind stmt_kind ts.
Proof. intros H. apply expr_in_stmt, (proj1 (proj2 expr_kinds) l ts H). Qed.
#[export] Hint Resolve expr_stmt_kinds list_stmt_kinds : kinds.

Lemma sort_term_kinds t ts : toks_sort_term t ts -> all_kind stmt_kind ts.
Proof. intros [x asc asp dflt nf nsp tx ta tn Hx [] []]; by_kinds. Qed.

Lemma ext_col_kinds c ts : toks_ext_col c ts -> all_kind stmt_kind ts.
Proof. intros []; by_kinds. Qed.

Lemma proj_col_kinds c ts : toks_proj_col c ts -> all_kind stmt_kind ts.
Proof. intros []; by_kinds. Qed.

Lemma render_prop_kinds c ts : toks_render_prop c ts -> all_kind stmt_kind ts.
Proof. intros []; by_kinds. Qed.
#[export] Hint Resolve sort_term_kinds ext_col_kinds proj_col_kinds render_prop_kinds : kinds.

Lemma summ_kinds cols bsp gs ts : toks_summ cols bsp gs ts -> all_kind stmt_kind ts.
Proof. intros []; by_kinds. Qed.

Lemma join_kind_kinds ksp asp fl ts : toks_join_kind ksp asp fl ts -> all_kind stmt_kind ts.
Proof. intros []; by_kinds. Qed.

Lemma render_with_kinds wsp lsp props rsp ts : toks_render_with wsp lsp props rsp ts -> all_kind stmt_kind ts.
Proof. intros []; by_kinds. Qed.
#[export] Hint Resolve summ_kinds join_kind_kinds render_with_kinds : kinds.

Lemma op_kinds : (forall o ts, toks_op o ts -> all_kind stmt_kind ts) /\ (forall l ts, toks_ops l ts -> all_kind stmt_kind ts).
Proof. apply toks_op_mutind; by_kinds. Qed.

Lemma stmt_kinds s ts : toks_stmt s ts -> all_kind stmt_kind ts.
Proof.
  intros [ksp i asp x tk ti ta tx Hk Hi Ha Hx|t ts0 (tsrc0 & tro & -> & Hs & Ho)]; [by_kinds|].
  apply (proj2 op_kinds) in Ho. by_kinds.
Qed.

Lemma stmt_not_error_semi s ts : toks_stmt s ts -> Forall (fun t => tkind t <> KError /\ tkind t <> KSemi) ts.
Proof. intros H. eapply Forall_impl; [|exact (stmt_kinds s ts H)]. intros t. apply stmt_kind_not_error_semi. Qed.

Lemma prog_no_error ss ts : toks_prog ss ts -> Forall (fun t => tkind t <> KError) ts.
Proof.
  assert (Hs : forall s ts, toks_stmt s ts -> Forall (fun t => tkind t <> KError) ts).
  { intros s ts0 H. eapply Forall_impl; [|exact (stmt_not_error_semi s ts0 H)]. intros t. apply proj1. }
  induction 1 as [|semi ss rest Hk _ IH|s ts Ht|s ts semi ss rest Ht Hk _ IH].
  - constructor.
  - constructor; [rewrite Hk; discriminate|exact IH].
  - exact (Hs s ts Ht).
  - apply Forall_app. split; [exact (Hs s ts Ht)|]. constructor; [rewrite Hk; discriminate|exact IH].
Qed.

Theorem error_token_rejected s t : In t (scan s) -> tkind t = KError -> forall ss, parse s <> ParseOk ss.
Proof.
  intros Hin Hk ss Hp. apply parse_sound in Hp. apply prog_no_error in Hp.
  rewrite Forall_forall in Hp. exact (Hp t Hin Hk).
Qed.
