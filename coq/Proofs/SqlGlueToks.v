(** * The token view [ptoks] used by the token-level theorems (ReadBack*.v) is the lexing of the
    bytes, for glued piece lists. *)
From PQL Require Import Model.Compile Spec.SqlLex Proofs.SqlGlue Proofs.ReadBack.
Local Open Scope list_scope.

Lemma pieces_glue_tail p r nx : pieces_glue (p :: r) nx = true -> pieces_glue r nx = true.
Proof. cbn [pieces_glue]. intros H. apply andb_prop in H as [_ H]. exact H. Qed.

Lemma ptoks_of_glue : forall ps nx, pieces_glue ps nx = true ->
  exists l, pieces_atoms ps = Some l /\ ptoks ps = Some (atoms_toks l).
Proof.
  induction ps as [|p r IH]; intros nx H; cbn [pieces_atoms ptoks].
  - exists []. split; reflexivity.
  - pose proof (pieces_glue_tail _ _ _ H) as Hr. destruct (IH nx Hr) as (lr & Er & Tr).
    cbn [pieces_glue] in H. apply andb_prop in H as [Hp _]. unfold piece_glue in Hp.
    destruct (piece_atoms p) as [lp|] eqn:Ep; [|discriminate].
    exists (lp ++ lr). rewrite Er, Tr. split; [reflexivity|].
    pose proof (ptok_atoms p lp _ Ep Hp) as Hk. rewrite atoms_toks_app.
    destruct p; cbn [ptok]; try contradiction; rewrite Hk; reflexivity.
Qed.

Theorem glue_bytes_are_ptoks ps : glue_ok ps = true ->
  exists ts, ptoks ps = Some ts /\ sql_lex ClickHouse (render ps) = Some ts.
Proof.
  intros H. destruct (glue_lexes ps H) as (l & El & Hl). destruct (ptoks_of_glue ps None H) as (l' & El' & Hp).
  rewrite El in El'. injection El' as <-. exists (atoms_toks l). split; assumption.
Qed.
