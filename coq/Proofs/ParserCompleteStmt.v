(** C07, completeness continued: operators, statements and whole programs of the grammar parse to the
    prescribed tree; ends with [parse_complete]. *)
From PQL Require Import Spec.Grammar Proofs.ParserSound Proofs.ParserSoundStmt Proofs.ParserReject Proofs.SpanFacts Proofs.SplitSkip
  Proofs.ParserComplete Proofs.NoSemi.
From Coq Require Import Lia.
Local Open Scope list_scope.
Local Open Scope nat_scope.
Local Notation length := List.length (only parsing).

(** what follows an expression inside an operator: its end, a comma, `by`, `)` *)
Definition stop_hd (rest : list token) : Prop :=
  match rest with [] => True | t :: _ => tkind t = KComma \/ tkind t = KBy \/ tkind t = KRParen end.

Lemma stop_follows rest : stop_hd rest -> follows (-1) rest.
Proof.
  destruct rest as [|t r]; [trivial|]. cbn [stop_hd follows]. unfold not_cont.
  intros [H|[H|H]]; rewrite H; repeat split; discriminate.
Qed.

Lemma is_word_kw w w' sp t : kw_tok [w'] sp t -> is_word w t = str_eqb w' w.
Proof.
  intros (Hk & Hin & _). unfold is_word. rewrite (is_kind_true _ _ Hk). cbn [andb].
  destruct Hin as [<-|[]]. reflexivity.
Qed.

Lemma is_word_other w t : tkind t <> KIdentifier -> is_word w t = false.
Proof. intros H. unfold is_word. rewrite (is_kind_false _ _ H). reflexivity. Qed.

Lemma stop_not_ident t r : stop_hd (t :: r) -> tkind t <> KIdentifier.
Proof. cbn [stop_hd]. intros [H|[H|H]]; rewrite H; discriminate. Qed.

Section CompleteStmt.
Variable srclen : nat.

Notation pexpr := (p_expr srclen).
Notation plist := (p_expr_list srclen).

Lemma pexpr_stop e used rest f : toks_expr e used -> gexpr e = true -> stop_hd rest -> 4 * length used + 4 <= f ->
  pexpr f (used ++ rest) = (Some e, rest, []).
Proof. intros Ht Hg Hr Hf. apply p_expr_complete; try assumption. apply stop_follows. exact Hr. Qed.

Lemma kw_follows ws sp t r : kw_tok ws sp t -> follows (-1) (t :: r).
Proof. intros (Hk & _). cbn [follows]. unfold not_cont. rewrite Hk. repeat split; discriminate. Qed.

Lemma dir_nulls_follows asc asp dflt ta nf nsp tn rest : toks_dir asc asp dflt ta -> toks_nulls dflt nf nsp tn -> stop_hd rest ->
  follows (-1) (ta ++ tn ++ rest).
Proof. intros Hd Hn Hr. destruct Hd; [destruct Hn|..]; cbn [app]; eauto using stop_follows, kw_follows. Qed.

Lemma nulls_complete x asc aspan dflt nf nsp tn rest : toks_nulls dflt nf nsp tn -> stop_hd rest ->
  p_nulls srclen (Some x) asc aspan dflt (tn ++ rest) = (Some (mkSortTerm x asc aspan nf nsp), rest, []).
Proof.
  intros Hn Hr. unfold p_nulls. destruct Hn as [|t t2 Ht Ht2|t t2 Ht Ht2]; cbn [app].
  - destruct rest as [|t r]; [reflexivity|]. rewrite (is_word_other _ _ (stop_not_ident _ _ Hr)). reflexivity.
  - rewrite (is_word_kw _ _ _ _ Ht), (is_word_kw _ _ _ _ Ht2). simpl (str_eqb _ _). reflexivity.
  - rewrite (is_word_kw _ _ _ _ Ht), !(is_word_kw _ _ _ _ Ht2). simpl (str_eqb _ _). reflexivity.
Qed.

Lemma sort_term_complete t ts rest f : toks_sort_term t ts -> gsort_term t = true -> stop_hd rest ->
  4 * length ts + 4 <= f -> p_sort_term srclen f (ts ++ rest) = (Some t, rest, []).
Proof.
  intros Ht Hg Hr Hf. destruct Ht as [x asc asp dflt nf nsp tx ta tn Hx Hd Hn]. unfold gsort_term in Hg. cbn [st_x] in Hg.
  rewrite !app_length in Hf. rewrite p_sort_term_eq, <- !app_assoc.
  rewrite (p_expr_complete srclen x tx _ f Hx Hg (dir_nulls_follows _ _ _ _ _ _ _ _ Hd Hn Hr)) by lia. cbn [no_err negb].
  pose proof (fun asc asp => nulls_complete x asc asp dflt nf nsp tn rest Hn Hr) as HN.
  destruct Hd as [|sp t Ht|sp t Ht]; cbn [app].
  - destruct Hn as [|t t2 Ht Ht2|t t2 Ht Ht2]; cbn [app] in *.
    + destruct rest as [|t r]; [reflexivity|]. rewrite !(is_word_other _ _ (stop_not_ident _ _ Hr)). reflexivity.
    + rewrite !(is_word_kw _ _ _ _ Ht). simpl (str_eqb _ _). cbv iota. apply HN.
    + rewrite !(is_word_kw _ _ _ _ Ht). simpl (str_eqb _ _). cbv iota. apply HN.
  - rewrite (is_word_kw _ _ _ _ Ht). simpl (str_eqb _ _). cbv iota. destruct Ht as (_ & _ & <-). apply HN.
  - rewrite !(is_word_kw _ _ _ _ Ht). simpl (str_eqb _ _). cbv iota. destruct Ht as (_ & _ & <-). apply HN.
Qed.

Lemma row_count_complete x tx rest f : toks_expr x tx -> grow_count x = true -> stop_hd rest ->
  4 * length tx + 4 <= f -> p_row_count srclen f (tx ++ rest) = (Some x, rest, []).
Proof.
  intros Hx Hg Hr Hf. unfold grow_count in Hg. apply andb_prop in Hg as [Hg Hi]. unfold p_row_count.
  rewrite (pexpr_stop _ _ _ _ Hx Hg Hr Hf). cbn [no_err negb]. destruct x; try reflexivity. rewrite Hi. reflexivity.
Qed.

Lemma ext_col_complete c ts rest f : toks_ext_col c ts -> gext_col c = true -> stop_hd rest ->
  4 * length ts + 4 <= f -> p_ext_col srclen f (ts ++ rest) = (Some c, rest, []).
Proof.
  intros Ht Hg Hr Hf. unfold gext_col in Hg. destruct Ht as [i asp x ti ta tx Hi Ha Hx|x tx Hx]; cbn [ec_x] in Hg.
  - cbn [length] in Hf. unfold p_ext_col. cbn [app]. rewrite (p_ident_complete srclen _ _ _ Hi).
    destruct Ha as [Hak Has]. rewrite (is_kind_true _ _ Hak).
    rewrite (pexpr_stop x tx rest f Hx Hg Hr ltac:(lia)). cbn [when_ok no_err option_map opaque map]. subst. reflexivity.
  - unfold p_ext_col.
    assert (Hnamed : match p_ident srclen (tx ++ rest) with
                     | (Some i, a :: r, _) => if is_kind KAssign a then Some (i, tok_span a, r) else None
                     | _ => None end = None).
    { pose proof (proj1 expr_kinds _ _ Hx) as Hna. pose proof (toks_expr_ne _ _ Hx) as Hne.
      destruct tx as [|t r]; [contradiction|]. cbn [app]. unfold p_ident.
      destruct (is_kind KIdentifier t || is_kind KQuotedIdentifier t); [|reflexivity].
      destruct r as [|a r']; cbn [app].
      - destruct rest as [|a r']; [reflexivity|]. rewrite is_kind_false; [reflexivity|].
        cbn [stop_hd] in Hr. destruct Hr as [H|[H|H]]; rewrite H; discriminate.
      - rewrite is_kind_false; [reflexivity|]. apply Forall_inv_tail, Forall_inv in Hna. apply expr_kind_not_assign, Hna. }
    rewrite Hnamed. rewrite (pexpr_stop _ _ _ _ Hx Hg Hr Hf). reflexivity.
Qed.

Lemma comma_stop c r : tkind c = KComma -> stop_hd (c :: r).
Proof. intros H. cbn [stop_hd]. left. exact H. Qed.
Lemma by_stop c r : tkind c = KBy -> stop_hd (c :: r).
Proof. intros H. cbn [stop_hd]. right. left. exact H. Qed.
Lemma rparen_stop c r : tkind c = KRParen -> stop_hd (c :: r).
Proof. intros H. cbn [stop_hd]. right. right. exact H. Qed.

(** a comma-separated list that runs to the end of its operator *)
Section Sep.
Context {A : Type} (elem : nat -> list token -> option A * list token * errs).

Variables (T : A -> list token -> Prop) (g : A -> bool).
Hypothesis elem_complete : forall a ta rest f, T a ta -> g a = true -> stop_hd rest -> 4 * length ta + 4 <= f ->
  elem f (ta ++ rest) = (Some a, rest, []).

Lemma sep_complete f l ts : toks_sep T l ts -> forallb g l = true ->
  forall n, length ts < n -> 4 * length ts + 4 <= f -> p_sep elem n f ts = (Some l, [], []).
Proof.
  induction 1 as [a ta Ha|a ta c r tr Ha Hc Hr IH]; intros Hg n Hn Hf; cbn [forallb] in Hg; apply andb_prop in Hg as [Hga Hgr];
    (destruct n as [|n]; [lia|]); cbn [p_sep].
  - pose proof (elem_complete a ta [] f Ha Hga I Hf) as E. rewrite app_nil_r in E. rewrite E. reflexivity.
  - rewrite app_length in Hf, Hn. cbn [length] in Hf, Hn.
    rewrite (elem_complete a ta (c :: tr) f Ha Hga (comma_stop _ _ Hc) ltac:(lia)). cbn [no_err negb].
    rewrite (is_kind_true _ _ Hc). rewrite (IH Hgr n ltac:(lia) ltac:(lia)). reflexivity.
Qed.
End Sep.

Lemma sort_terms_complete f terms tt : toks_sep toks_sort_term terms tt -> forallb gsort_term terms = true ->
  forall n, length tt < n -> 4 * length tt + 4 <= f -> p_sort_terms srclen n f tt = (Some terms, [], []).
Proof. exact (sep_complete (p_sort_term srclen) _ _ sort_term_complete f terms tt). Qed.

Lemma extend_cols_complete f cols tc : toks_sep toks_ext_col cols tc -> forallb gext_col cols = true ->
  forall n, length tc < n -> 4 * length tc + 4 <= f -> p_extend_cols srclen n f tc = (Some cols, [], []).
Proof. exact (sep_complete (p_ext_col srclen) _ _ ext_col_complete f cols tc). Qed.

Lemma group_cols_complete f cols tc : toks_sep toks_ext_col cols tc -> forallb gext_col cols = true ->
  forall n, length tc < n -> 4 * length tc + 4 <= f -> p_group_cols srclen n f tc = (Some cols, [], []).
Proof. exact (extend_cols_complete f cols tc). Qed.

Lemma project_cols_complete f cols tc : toks_sep toks_proj_col cols tc -> forallb gproj_col cols = true ->
  forall n, length tc < n -> 4 * length tc + 4 <= f -> p_project_cols srclen n f tc = (Some cols, [], []).
Proof.
  induction 1 as [a ta Ha|a ta c r tr Ha Hc Hr IH]; intros Hg n Hn Hf; cbn [forallb] in Hg; apply andb_prop in Hg as [Hga Hgr];
    (destruct n as [|n]; [lia|]); cbn [p_project_cols].
  - destruct Ha as [i ti Hi|i asp x ti ta tx Hi Has Hx].
    + rewrite (p_ident_complete srclen _ _ _ Hi). reflexivity.
    + cbn [app]. rewrite (p_ident_complete srclen _ _ _ Hi). destruct Has as [Hak Hasp].
      rewrite !(is_kind_of _ _ ta Hak). cbn [kind_eqb kind_code Z.eqb Pos.eqb]. unfold gproj_col in Hga. cbn [pc_x] in Hga. cbn [length] in Hf.
      pose proof (pexpr_stop x tx [] f Hx Hga I ltac:(lia)) as E. rewrite app_nil_r in E. rewrite E. cbn [no_err negb option_map]. subst. reflexivity.
  - rewrite app_length in Hf, Hn. cbn [length] in Hf, Hn.
    destruct Ha as [i ti Hi|i asp x ti ta tx Hi Has Hx].
    + cbn [app]. rewrite (p_ident_complete srclen _ _ _ Hi). rewrite (is_kind_true _ _ Hc).
      cbn [length] in Hf, Hn. rewrite (IH Hgr n ltac:(lia) ltac:(lia)). reflexivity.
    + cbn [app]. rewrite (p_ident_complete srclen _ _ _ Hi). destruct Has as [Hak Hasp].
      rewrite !(is_kind_of _ _ ta Hak). cbn [kind_eqb kind_code Z.eqb Pos.eqb]. unfold gproj_col in Hga. cbn [pc_x] in Hga. cbn [length] in Hf, Hn.
      rewrite (pexpr_stop x tx (c :: tr) f Hx Hga (comma_stop _ _ Hc) ltac:(lia)). cbn [no_err negb option_map].
      rewrite (is_kind_true _ _ Hc). rewrite (IH Hgr n ltac:(lia) ltac:(lia)). cbn [when_ok no_err opt_map2]. subst. reflexivity.
Qed.

Lemma pexpr_by b r f : tkind b = KBy -> 4 <= f -> pexpr f (b :: r) = (None, b :: r, nf_at (tstart b)).
Proof.
  intros Hb Hf. destruct f as [|[|[|[|f]]]]; try lia.
  rewrite p_expr_S, p_unary_S.
  rewrite !(is_kind_of _ _ b Hb). cbn [kind_eqb kind_code Z.eqb Pos.eqb orb].
  rewrite p_primary_S, p_inner_S.
  rewrite !(is_kind_of _ _ b Hb). reflexivity.
Qed.

Lemma ext_col_by b r f : tkind b = KBy -> 4 <= f -> exists c e, p_ext_col srclen f (b :: r) = (c, b :: r, e) /\ is_nf e = true.
Proof.
  intros Hb Hf. unfold p_ext_col, p_ident.
  rewrite !(is_kind_of _ _ b Hb). cbn [kind_eqb kind_code Z.eqb Pos.eqb orb]. rewrite (pexpr_by _ _ _ Hb Hf). eexists _, _. split; reflexivity.
Qed.

Lemma summarize_cols_by f b r n ac : tkind b = KBy -> 4 <= f -> 0 < n ->
  p_summarize_cols srclen n f ac (b :: r) = (Some [], b :: r, [], false, ac).
Proof.
  intros Hb Hf Hn. destruct n as [|n]; [lia|]. cbn [p_summarize_cols].
  destruct (ext_col_by b r f Hb Hf) as (c & e & -> & ->). reflexivity.
Qed.

Lemma summarize_cols_complete f cols tc : toks_sep toks_ext_col cols tc -> forallb gext_col cols = true ->
  forall n ac, length tc < n -> 4 * length tc + 4 <= f ->
    p_summarize_cols srclen n f ac tc = (Some cols, [], [], true, false) /\
    (forall b r, tkind b = KBy -> p_summarize_cols srclen n f ac (tc ++ b :: r) = (Some cols, b :: r, [], false, false)) /\
    (length tc + 1 < n -> forall c b r, tkind c = KComma -> tkind b = KBy -> p_summarize_cols srclen n f ac (tc ++ c :: b :: r) = (Some cols, b :: r, [], false, true)).
Proof.
  induction 1 as [a ta Ha|a ta c r tr Ha Hc Hr IH]; intros Hg n ac Hn Hf; cbn [forallb] in Hg; apply andb_prop in Hg as [Hga Hgr];
    (destruct n as [|n]; [lia|]); cbn [p_summarize_cols].
  - split; [|split].
    + pose proof (ext_col_complete a ta [] f Ha Hga I Hf) as E. rewrite app_nil_r in E. rewrite E. reflexivity.
    + intros b r Hb. rewrite (ext_col_complete a ta (b :: r) f Ha Hga (by_stop _ _ Hb) Hf). cbn [is_nf existsb no_err negb].
      rewrite (is_kind_false KComma b) by (rewrite Hb; discriminate). reflexivity.
    + intros Hn2 c b r Hc Hb. rewrite (ext_col_complete a ta (c :: b :: r) f Ha Hga (comma_stop _ _ Hc) Hf). cbn [is_nf existsb no_err negb].
      rewrite (is_kind_true _ _ Hc). rewrite (summarize_cols_by f b r n true Hb ltac:(lia) ltac:(lia)). reflexivity.
  - rewrite app_length in Hf, Hn. cbn [length] in Hf, Hn.
    destruct (IH Hgr n true ltac:(lia) ltac:(lia)) as (I1 & I2 & I3).
    assert (E : forall rest, p_ext_col srclen f (ta ++ c :: tr ++ rest) = (Some a, c :: tr ++ rest, [])).
    { intros rest. apply ext_col_complete; try assumption; [apply comma_stop; exact Hc|lia]. }
    split; [|split].
    + specialize (E []). rewrite app_nil_r in E. rewrite E. cbn [is_nf existsb no_err negb]. rewrite (is_kind_true _ _ Hc), I1. reflexivity.
    + intros b r0 Hb. rewrite <- app_assoc. cbn [app]. rewrite E. cbn [is_nf existsb no_err negb]. rewrite (is_kind_true _ _ Hc), (I2 b r0 Hb). reflexivity.
    + intros Hn2 c0 b r0 Hc0 Hb. rewrite app_length in Hn2. cbn [length] in Hn2. rewrite <- app_assoc. cbn [app]. rewrite E. cbn [is_nf existsb no_err negb].
      rewrite (is_kind_true _ _ Hc), (I3 ltac:(lia) c0 b r0 Hc0 Hb). reflexivity.
Qed.

Lemma render_prop_complete p tp rest f : toks_render_prop p tp -> grender_prop p = true -> stop_hd rest ->
  4 * length tp + 4 <= f -> p_render_prop srclen f (tp ++ rest) = (Some p, rest, []).
Proof.
  intros Ht Hg Hr Hf. destruct Ht as [i asp x ti ta tx Hi Ha Hx]. unfold grender_prop in Hg. cbn [rp_value] in Hg. cbn [length] in Hf.
  unfold p_render_prop. cbn [app]. rewrite (p_ident_complete srclen _ _ _ Hi). destruct Ha as [Hak Has]. rewrite (is_kind_true _ _ Hak).
  rewrite (pexpr_stop x tx rest f Hx Hg Hr ltac:(lia)). cbn [no_err negb option_map]. subst. reflexivity.
Qed.

Lemma render_props_complete f props tp : toks_sep toks_render_prop props tp -> forallb grender_prop props = true ->
  forall n tr rest, tkind tr = KRParen -> length tp < n -> 4 * length tp + 4 <= f ->
    p_render_props srclen n f (tp ++ tr :: rest) = (Some (props, tok_span tr), rest, []).
Proof.
  induction 1 as [a ta Ha|a ta c r tr0 Ha Hc Hr IH]; intros Hg n tr rest Htr Hn Hf; cbn [forallb] in Hg; apply andb_prop in Hg as [Hga Hgr];
    (destruct n as [|n]; [lia|]); cbn [p_render_props].
  - rewrite (render_prop_complete a ta (tr :: rest) f Ha Hga (rparen_stop _ _ Htr) Hf). cbn [no_err negb].
    rewrite (is_kind_true _ _ Htr). reflexivity.
  - rewrite app_length in Hf, Hn. cbn [length] in Hf, Hn. rewrite <- app_assoc. cbn [app].
    rewrite (render_prop_complete a ta (c :: tr0 ++ tr :: rest) f Ha Hga (comma_stop _ _ Hc) ltac:(lia)). cbn [no_err negb].
    rewrite (is_kind_false KRParen c) by (rewrite Hc; discriminate). rewrite (is_kind_true _ _ Hc).
    rewrite (IH Hgr n tr rest Htr ltac:(lia) ltac:(lia)). reflexivity.
Qed.

Lemma after_kind_complete f pipe kw ksp kasp flavor tl rsrc tsr rops tro tr ton tc conds osp :
  p_tabular srclen f (tsr :: tro) = (Some (mkTab rsrc rops), [], []) ->
  tkind tl = KLParen -> ident_tok rsrc tsr -> toks_ops rops tro -> tkind tr = KRParen -> kw_tok [w_on] osp ton ->
  toks_list conds tc -> forallb gexpr conds = true -> 4 * length tc + 5 <= f ->
  after_kind srclen f pipe kw ksp kasp flavor (tl :: (tsr :: tro) ++ tr :: ton :: tc) [] =
    (Some (OJoin pipe kw ksp kasp flavor (tok_span tl) rsrc rops (tok_span tr) osp conds), [], [], true).
Proof.
  intros Htab Hl Hsrc Hops Hr Hon Hc Hg Hf. unfold after_kind. rewrite (is_kind_true _ _ Hl).
  rewrite (split_at_closerP KRParen (tsr :: tro) tr (ton :: tc) (or_introl eq_refl)); [| |exact Hr].
  2:{ change (tsr :: tro) with ([tsr] ++ tro). apply skipsP_app; [|eapply ops_skipsP; exact Hops].
      apply skips0_P, skips0_tok. destruct Hsrc as (Hk & _). rewrite Hk. destruct (iquoted rsrc); unfold plain_kind; repeat split; discriminate. }
  rewrite Htab. cbn [opaque map end_split app]. rewrite (is_kind_true _ _ Hr).
  rewrite (is_word_kw _ _ _ _ Hon). simpl (str_eqb _ _). cbv iota.
  pose proof (p_expr_list_complete srclen conds tc [] f Hc Hg (or_introl eq_refl) Hf) as E. rewrite app_nil_r in E. rewrite E.
  cbn [opaque map app when_ok no_err opt_map2 tsrc tops]. destruct Hon as (_ & _ & <-). reflexivity.
Qed.

Definition P_op (o : operator) (ts : list token) : Prop := gop o = true ->
  exists p n body, ts = p :: n :: body /\ tkind p = KPipe /\ tkind n = KIdentifier /\
    forall f, 4 * length body + 10 <= f -> p_operator srclen f (tok_span p) n body = (Some o, [], [], true).

Definition P_ops (os : list operator) (ts : list token) : Prop := forallb gop os = true ->
  forall f, 4 * length ts + 6 <= f -> p_operators srclen f ts = (Some os, [], []).

Lemma op_case o ws psp ksp p n body : is_tok KPipe psp p -> kw_tok ws ksp n ->
  (gop o = true -> forall f, 4 * length body + 9 <= f -> p_operator srclen (S f) psp n body = (Some o, [], [], true)) ->
  P_op o (p :: n :: body).
Proof.
  intros [Hpk <-] (Hnk & _) H Hg. exists p, n, body. repeat split; try assumption.
  intros f Hf. destruct f as [|f]; [lia|]. apply H; [exact Hg|lia].
Qed.

Lemma tabular_of_ops f rsrc tsrc rops tro : ident_tok rsrc tsrc -> P_ops rops tro -> forallb gop rops = true ->
  4 * length tro + 7 <= f -> p_tabular srclen f (tsrc :: tro) = (Some (mkTab rsrc rops), [], []).
Proof.
  intros Hs HP Hg Hf. destruct f as [|f]; [lia|]. rewrite p_tabular_S, (p_ident_complete srclen _ _ _ Hs).
  rewrite (HP Hg f ltac:(lia)). reflexivity.
Qed.

(** In each operator case [destruct Hn as (_ & [<-|[]] & <-)] puts the keyword in place of [tvalue n] (and [tok_span n] in
    place of its span); the comparisons with the other keywords in [p_operator_S] are then between constants and compute. *)
Lemma op_complete : (forall o ts, toks_op o ts -> P_op o ts) /\ (forall l ts, toks_ops l ts -> P_ops l ts).
Proof.
  apply toks_op_mutind.
  - (* count *) intros psp ksp p n Hp Hn. apply (op_case _ _ _ _ _ _ _ Hp Hn). intros _ f _.
    rewrite p_operator_S. destruct Hn as (_ & [<-|[]] & <-). reflexivity.
  - (* where / filter *) intros psp ksp x p n tx Hp Hn Hx. apply (op_case _ _ _ _ _ _ _ Hp Hn). cbn [gop]. intros Hg f Hf.
    pose proof (pexpr_stop x tx [] f Hx Hg I ltac:(lia)) as E. rewrite app_nil_r in E.
    rewrite p_operator_S, E. destruct Hn as (_ & [<-|[<-|[]]] & <-); reflexivity.
  - (* sort / order *) intros psp terms p n b tt Hp Hn Hb Ht. apply (op_case _ _ _ _ _ _ _ Hp Hn). cbn [gop length]. intros Hg f Hf.
    pose proof (sort_terms_complete f terms tt Ht Hg (S (length (b :: tt))) ltac:(cbn [length]; lia) ltac:(lia)) as E.
    rewrite p_operator_S. cbv zeta iota. rewrite (is_kind_true _ _ Hb), E. destruct Hn as (_ & [<-|[<-|[]]] & _); reflexivity.
  - (* take / limit *) intros psp ksp x p n tx Hp Hn Hx. apply (op_case _ _ _ _ _ _ _ Hp Hn). cbn [gop]. intros Hg f Hf.
    pose proof (row_count_complete x tx [] f Hx Hg I ltac:(lia)) as E. rewrite app_nil_r in E.
    rewrite p_operator_S, E. destruct Hn as (_ & [<-|[<-|[]]] & <-); reflexivity.
  - (* top *) intros psp ksp x bsp col p n tx b tc Hp Hn Hx [Hbk <-] Hc. apply (op_case _ _ _ _ _ _ _ Hp Hn). cbn [gop]. intros Hg f Hf.
    apply andb_prop in Hg as [Hgx Hgc]. rewrite app_length in Hf. cbn [length] in Hf.
    pose proof (row_count_complete x tx (b :: tc) f Hx Hgx (by_stop _ _ Hbk) ltac:(lia)) as E.
    pose proof (sort_term_complete col tc [] f Hc Hgc I ltac:(lia)) as E2. rewrite app_nil_r in E2.
    rewrite p_operator_S. cbv zeta. destruct Hn as (_ & [<-|[]] & <-). simpl (str_eqb _ _). cbn [orb].
    rewrite E. cbn [no_err negb]. rewrite (is_kind_true _ _ Hbk), E2. reflexivity.
  - (* project *) intros psp ksp cols p n tc Hp Hn Hc. apply (op_case _ _ _ _ _ _ _ Hp Hn). cbn [gop]. intros Hg f Hf.
    pose proof (project_cols_complete f cols tc Hc Hg (S (length tc)) ltac:(lia) ltac:(lia)) as E.
    rewrite p_operator_S. cbv zeta. rewrite E. destruct Hn as (_ & [<-|[]] & <-). reflexivity.
  - (* extend *) intros psp ksp cols p n tc Hp Hn Hc. apply (op_case _ _ _ _ _ _ _ Hp Hn). cbn [gop]. intros Hg f Hf.
    pose proof (extend_cols_complete f cols tc Hc Hg (S (length tc)) ltac:(lia) ltac:(lia)) as E.
    rewrite p_operator_S. cbv zeta. rewrite E. destruct Hn as (_ & [<-|[]] & <-). reflexivity.
  - (* summarize *) intros psp ksp cols bsp gs p n body Hp Hn Hs. apply (op_case _ _ _ _ _ _ _ Hp Hn). cbn [gop]. intros Hg f Hf.
    apply andb_prop in Hg as [Hgc Hgg].
    rewrite p_operator_S. cbv zeta. destruct Hn as (_ & [<-|[]] & <-). simpl (str_eqb _ _). cbn [orb].
    destruct Hs as [cols tc Hc|bsp gs b tg [Hbk <-] Hgs|cols bsp gs tc b tg Hc [Hbk <-] Hgs|cols bsp gs tc c b tg Hc Hcm [Hbk <-] Hgs].
    + destruct (summarize_cols_complete f cols tc Hc Hgc (S (length tc)) false ltac:(lia) ltac:(lia)) as (E & _ & _).
      rewrite E. reflexivity.
    + cbn [length] in Hf.
      pose proof (group_cols_complete f gs tg Hgs Hgg (S (length (b :: tg))) ltac:(cbn [length]; lia) ltac:(lia)) as E2.
      rewrite summarize_cols_by by (exact Hbk || lia).
      cbn [length Nat.eqb orb] in *. rewrite (is_kind_true _ _ Hbk), E2. reflexivity.
    + rewrite app_length in Hf. cbn [length] in Hf.
      pose proof (group_cols_complete f gs tg Hgs Hgg (S (length (tc ++ b :: tg))) ltac:(rewrite app_length; cbn [length]; lia) ltac:(lia)) as E2.
      destruct (summarize_cols_complete f cols tc Hc Hgc (S (length (tc ++ b :: tg))) false ltac:(rewrite app_length; cbn [length]; lia) ltac:(lia)) as (_ & E & _).
      rewrite (E b tg Hbk). rewrite (is_kind_true _ _ Hbk), E2. reflexivity.
    + rewrite app_length in Hf. cbn [length] in Hf.
      pose proof (group_cols_complete f gs tg Hgs Hgg (S (length (tc ++ c :: b :: tg))) ltac:(rewrite app_length; cbn [length]; lia) ltac:(lia)) as E2.
      destruct (summarize_cols_complete f cols tc Hc Hgc (S (length (tc ++ c :: b :: tg))) false ltac:(rewrite app_length; cbn [length]; lia) ltac:(lia)) as (_ & _ & E).
      rewrite (E ltac:(rewrite app_length; cbn [length]; lia) c b tg Hcm Hbk). rewrite (is_kind_true _ _ Hbk), E2. reflexivity.
  - (* join *) intros psp ksp kindsp kasp flavor lsp rsrc rops rsp osp conds p n tk tl tsrc tro tr ton tc Hp Hn Hk [Hlk <-] Hsrc Hro IHro [Hrk <-] Hon Hc Hne.
    apply (op_case _ _ _ _ _ _ _ Hp Hn). cbn [gop]. intros Hg f Hf. apply andb_prop in Hg as [Hgo Hgc].
    rewrite !app_length in Hf. cbn [length] in Hf. rewrite app_length in Hf. cbn [length] in Hf.
    pose proof (tabular_of_ops f rsrc tsrc rops tro Hsrc IHro Hgo ltac:(lia)) as Htab.
    pose proof (fun ks ka fl => after_kind_complete f psp (tok_span n) ks ka fl tl rsrc tsrc rops tro tr ton tc conds osp
                  Htab Hlk Hsrc Hro Hrk Hon Hc Hgc ltac:(lia)) as HA.
    rewrite p_operator_S. cbv zeta. destruct Hn as (_ & [<-|[]] & <-). simpl (str_eqb _ _). cbn [orb].
    destruct Hk as [|ksp0 asp fl tkd ta tf Hkd [Htak <-] Hfl Hq Hjt]; cbn [app].
    + rewrite (is_word_other w_kind tl) by (rewrite Hlk; discriminate). apply HA.
    + rewrite (is_word_kw _ _ _ _ Hkd). simpl (str_eqb _ _). cbv iota. rewrite (is_kind_true _ _ Htak).
      pose proof Hfl as (Hfk & Hfv & Hfs). rewrite Hq in Hfk. rewrite (is_kind_true _ _ Hfk). rewrite Hfv, Hjt.
      rewrite HA. rewrite (mk_ident_eq _ _ Hfl). destruct Hkd as (_ & _ & <-). reflexivity.
  - (* as *) intros psp ksp i p n ti Hp Hn Hi. apply (op_case _ _ _ _ _ _ _ Hp Hn). intros _ f _.
    rewrite p_operator_S, (p_ident_complete srclen _ _ _ Hi). destruct Hn as (_ & [<-|[]] & <-). reflexivity.
  - (* render *) intros psp ksp chart wsp lsp props rsp p n tch tw Hp Hn Hch Hw. apply (op_case _ _ _ _ _ _ _ Hp Hn). cbn [gop]. intros Hg f Hf.
    rewrite p_operator_S. cbv zeta. destruct Hn as (_ & [<-|[]] & <-). simpl (str_eqb _ _). cbn [orb].
    rewrite (p_ident_complete srclen _ _ _ Hch).
    destruct Hw as [|wsp lsp props rsp twt tl tp tr Hwt [Hlk <-] Hprops [Hrk <-]]; [reflexivity|].
    cbn [length] in Hf. rewrite app_length in Hf. cbn [length] in Hf.
    rewrite (is_word_kw _ _ _ _ Hwt). simpl (str_eqb _ _). cbv iota. rewrite (is_kind_true _ _ Hlk).
    rewrite (render_props_complete f props tp Hprops Hg) by first [exact Hrk | lia | cbn [length]; rewrite app_length; cbn [length]; lia].
    destruct Hwt as (_ & _ & <-). reflexivity.
  - (* no operators *) intros _ f Hf. destruct f as [|f]; [cbn [length] in Hf; lia|]. rewrite p_operators_S. reflexivity.
  - (* an operator and the rest *) intros o to os tos Ho IHo Hos IHos Hg f Hf. cbn [forallb] in Hg. apply andb_prop in Hg as [Hgo Hgs].
    destruct (IHo Hgo) as (p & n & body & -> & Hpk & Hnk & HO). rewrite app_length in Hf. cbn [length] in Hf.
    destruct f as [|f]; [lia|]. rewrite p_operators_S. cbn [app]. rewrite (is_kind_true _ _ Hpk).
    assert (Hsk : skips0 (n :: body)).
    { destruct (proj1 op_skips _ _ Ho) as (p' & body' & E & _ & Hb). injection E as <- <-. exact Hb. }
    assert (Hsplit : split KPipe (n :: body ++ tos) = (n :: body, tos)).
    { destruct (ops_head _ _ Hos) as [(_ & ->)|(p' & r & -> & Hp')].
      - rewrite app_nil_r. apply split_to_end; [unfold search_ok; tauto|exact Hsk].
      - change (n :: body ++ p' :: r) with ((n :: body) ++ p' :: r). apply split_at_pipe; assumption. }
    rewrite Hsplit. rewrite (is_kind_true _ _ Hnk). cbn [negb].
    rewrite (HO f ltac:(lia)). cbn [app end_split]. rewrite (IHos Hgs f ltac:(lia)). reflexivity.
Qed.

Lemma tabular_complete t ts f : toks_tab t ts -> forallb gop (tops t) = true -> 4 * length ts + 6 <= f ->
  p_tabular srclen f ts = (Some t, [], []).
Proof.
  intros (tsrc0 & tro & -> & Hs & Ho) Hg Hf. cbn [length] in Hf. destruct t as [src ops]. cbn [tsrc tops] in *.
  apply tabular_of_ops; try assumption; [apply (proj2 op_complete); exact Ho|lia].
Qed.

Lemma p_let_nf_other t r f : is_word w_let t = false -> p_let srclen f (t :: r) = (None, t :: r, nf_at (tstart t)).
Proof. intros H. unfold p_let. rewrite H. reflexivity. Qed.

Lemma statement_complete s ts f : toks_stmt s ts -> gstmt s = true -> 4 * length ts + 6 <= f ->
  p_statement srclen f ts = (Some s, [], []).
Proof.
  intros Ht Hg Hf. destruct Ht as [ksp i asp x tk ti ta tx Hk Hi Ha Hx|t ts Htab].
  - cbn [gstmt] in Hg. cbn [length] in Hf. unfold p_statement, p_let.
    rewrite (is_word_kw _ _ _ _ Hk). simpl (str_eqb _ _). cbv iota. rewrite (p_ident_complete srclen _ _ _ Hi).
    destruct Ha as [Hak Has]. rewrite (is_kind_true _ _ Hak).
    pose proof (pexpr_stop x tx [] f Hx Hg I ltac:(lia)) as E. rewrite app_nil_r in E. rewrite E.
    cbn [when_ok no_err option_map opaque map is_nf existsb negb]. destruct Hk as (_ & _ & <-). subst. reflexivity.
  - cbn [gstmt] in Hg. apply andb_prop in Hg as [Hnl Hg]. pose proof Htab as (tsrc0 & tro & -> & Hs & Ho).
    unfold p_statement. rewrite p_let_nf_other.
    + cbn [is_nf existsb nf_at enf orb negb]. rewrite (tabular_complete t _ f Htab Hg Hf). reflexivity.
    + unfold is_word, is_let_word in *. destruct Hs as (Hk & Hv & _). unfold is_kind. rewrite Hk, Hv.
      destruct (iquoted (tsrc t)); [reflexivity|]. cbn [negb andb] in Hnl. cbn [kind_eqb]. apply Bool.negb_true_iff in Hnl. rewrite Hnl. reflexivity.
Qed.

Lemma split_semi_all ts : all_nosemi ts -> split_semi ts = (ts, []).
Proof.
  induction 1 as [|t r Ht _ IH]; [reflexivity|]. cbn [split_semi]. rewrite (is_kind_false _ _ Ht), IH. reflexivity.
Qed.

Lemma split_semi_at ts semi rest : all_nosemi ts -> tkind semi = KSemi -> split_semi (ts ++ semi :: rest) = (ts, semi :: rest).
Proof.
  intros H Hs. induction H as [|t r Ht _ IH]; cbn [app split_semi].
  - rewrite (is_kind_true _ _ Hs). reflexivity.
  - rewrite (is_kind_false _ _ Ht), IH. reflexivity.
Qed.

Lemma statement_empty f : 1 <= f -> p_statement srclen f [] = (None, [], nf_at srclen).
Proof. intros Hf. destruct f as [|f]; [lia|]. unfold p_statement. cbn [p_let is_nf existsb nf_at enf orb negb]. rewrite p_tabular_S. reflexivity. Qed.

Theorem statements_complete ss ts : toks_prog ss ts -> gprog ss = true ->
  forall n f, length ts < n -> 4 * length ts + 6 <= f -> p_statements srclen n f ts [] = (Some ss, []).
Proof.
  induction 1 as [|semi ss rest Hsemi Hp IH|s ts Hs|s ts semi ss rest Hs Hsemi Hp IH]; intros Hg n f Hn Hf;
    (destruct n as [|n]; [lia|]); cbn [p_statements].
  - cbn [split_semi]. rewrite statement_empty by lia. reflexivity.
  - cbn [split_semi]. rewrite (is_kind_true _ _ Hsemi). rewrite statement_empty by lia. cbn [is_nf existsb nf_at enf orb].
    cbn [length] in Hn, Hf. rewrite (IH Hg n f ltac:(lia) ltac:(lia)). reflexivity.
  - unfold gprog in Hg. cbn [forallb] in Hg. apply andb_prop in Hg as [Hg _].
    rewrite (split_semi_all _ (stmt_nosemi _ _ Hs)). rewrite (statement_complete s ts f Hs Hg Hf). reflexivity.
  - unfold gprog in Hg. cbn [forallb] in Hg. apply andb_prop in Hg as [Hg Hgs].
    rewrite app_length in Hn, Hf. cbn [length] in Hn, Hf.
    rewrite (split_semi_at _ _ _ (stmt_nosemi _ _ Hs) Hsemi). rewrite (statement_complete s ts f Hs Hg ltac:(lia)).
    cbn [is_nf existsb negb option_map opaque map app end_split].
    rewrite (IH Hgs n f ltac:(lia) ltac:(lia)). reflexivity.
Qed.

End CompleteStmt.

Theorem parse_tokens_complete srclen ss ts : toks_prog ss ts -> gprog ss = true -> parse_tokens srclen ts = ParseOk ss.
Proof.
  intros Hp Hg. unfold parse_tokens, parse_fuel.
  rewrite (statements_complete srclen ss ts Hp Hg (S (length ts)) (6 * length ts + 12) ltac:(lia) ltac:(lia)). reflexivity.
Qed.

Theorem parse_complete s ss : toks_prog ss (scan s) -> gprog ss = true -> parse s = ParseOk ss.
Proof. intros Hp Hg. unfold parse. apply parse_tokens_complete; assumption. Qed.
