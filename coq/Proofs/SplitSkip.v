(** [split] passes over the tokens of any tree (they are bracket-balanced), so the range the parser
    cuts out for a bracketed or piped construct holds exactly that construct's tokens (for C07). *)
From PQL Require Import Spec.FlattenStmt Proofs.ParserSound Proofs.ParserReject.
Local Open Scope list_scope.
Local Open Scope nat_scope.

Definition search_ok (k : kind) : Prop := k = KRParen \/ k = KRBracket \/ k = KPipe.

Definition pre (ts : list token) (p : list token * list token) : list token * list token := (ts ++ fst p, snd p).

(** searching for a kind in [S], at any depth, [split] passes over [ts] and comes back with the same
    bracket stack *)
Definition skips_for (S : kind -> Prop) (ts : list token) : Prop :=
  forall search st r, S search -> split_toks search st (ts ++ r) = pre ts (split_toks search st r).
(** for every search: [ts] has no top-level `)`, `]` or `|` *)
Definition skips0 (ts : list token) : Prop :=
  forall search st r, search_ok search -> split_toks search st (ts ++ r) = pre ts (split_toks search st r).
(** the same inside at least one open bracket *)
Definition skips1 (ts : list token) : Prop :=
  forall search st r, search_ok search -> st <> [] -> split_toks search st (ts ++ r) = pre ts (split_toks search st r).

Lemma skips0_1 ts : skips0 ts -> skips1 ts.
Proof. intros H search st r Hs _. apply H. exact Hs. Qed.

Lemma pre_nil p : pre [] p = p. Proof. destruct p; reflexivity. Qed.
Lemma pre_app a b p : pre a (pre b p) = pre (a ++ b) p.
Proof. destruct p; unfold pre; cbn [fst snd]. rewrite app_assoc. reflexivity. Qed.

Lemma skips_for_nil S : skips_for S []. Proof. intros search st r _. cbn [app]. rewrite pre_nil. reflexivity. Qed.
Lemma skips_for_app S a b : skips_for S a -> skips_for S b -> skips_for S (a ++ b).
Proof. intros Ha Hb search st r Hs. rewrite <- app_assoc, Ha, Hb, pre_app by exact Hs. reflexivity. Qed.
Lemma skips_for_sub (S S' : kind -> Prop) ts : (forall k, S' k -> S k) -> skips_for S ts -> skips_for S' ts.
Proof. intros HS H search st r Hs. apply H, HS, Hs. Qed.

(* [skips0] is [skips_for search_ok], unfolded *)
Definition skips0_nil : skips0 [] := skips_for_nil search_ok.
Definition skips0_app a b : skips0 a -> skips0 b -> skips0 (a ++ b) := skips_for_app search_ok a b.

Lemma skips1_nil : skips1 []. Proof. apply skips0_1, skips0_nil. Qed.
Lemma skips1_app a b : skips1 a -> skips1 b -> skips1 (a ++ b).
Proof. intros Ha Hb search st r Hs Hst. rewrite <- app_assoc, Ha, Hb, pre_app by assumption. reflexivity. Qed.

Definition plain_kind (k : kind) : Prop :=
  k <> KLParen /\ k <> KLBracket /\ k <> KRParen /\ k <> KRBracket /\ k <> KPipe.

Lemma kind_eqb_refl k : kind_eqb k k = true. Proof. apply kind_eqb_eq. reflexivity. Qed.
Lemma kind_eqb_neq a b : a <> b -> kind_eqb a b = false.
Proof. intros H. destruct (kind_eqb a b) eqn:E; [|reflexivity]. apply kind_eqb_eq in E. contradiction. Qed.

Lemma split_cons_pre search st t r p : split_toks search st r = p ->
  (let '(a, b) := p in (t :: a, b)) = pre [t] p.
Proof. intros <-. destruct (split_toks search st r). reflexivity. Qed.

Lemma skips0_tok t : plain_kind (tkind t) -> skips0 [t].
Proof.
  intros (H1 & H2 & H3 & H4 & H5) search st r Hs. cbn [app split_toks].
  rewrite (kind_eqb_neq _ _ H1), (kind_eqb_neq _ _ H2), (kind_eqb_neq _ _ H3), (kind_eqb_neq _ _ H4). cbn [orb].
  assert (Hne : kind_eqb (tkind t) search = false).
  { apply kind_eqb_neq. destruct Hs as [->|[->| ->]]; assumption. }
  rewrite Hne. destruct (split_toks search st r); reflexivity.
Qed.

(** a pipe is passed over inside brackets, and at any depth when the search is for a bracket *)
Lemma pipe_passed t search st r : tkind t = KPipe -> search <> KPipe \/ st <> [] ->
  split_toks search st ([t] ++ r) = pre [t] (split_toks search st r).
Proof.
  intros Hk H. cbn [app split_toks]. rewrite Hk.
  rewrite (kind_eqb_neq KPipe KLParen), (kind_eqb_neq KPipe KLBracket), (kind_eqb_neq KPipe KRParen), (kind_eqb_neq KPipe KRBracket) by discriminate.
  cbn [orb]. destruct H as [H|H].
  - rewrite (kind_eqb_neq KPipe search) by congruence. destruct (split_toks search st r); reflexivity.
  - destruct st; [contradiction|]. destruct (kind_eqb KPipe search); destruct (split_toks search _ r); reflexivity.
Qed.

Lemma skips1_pipe t : tkind t = KPipe -> skips1 [t].
Proof. intros Hk search st r _ Hst. apply pipe_passed; auto. Qed.

Lemma search_not_open search : search_ok search -> kind_eqb search KLParen = false /\ kind_eqb search KLBracket = false.
Proof. intros [->|[->| ->]]; split; reflexivity. Qed.

Lemma skips0_group o cl l a c rest : (o = KLParen /\ cl = KRParen) \/ (o = KLBracket /\ cl = KRBracket) ->
  tkind l = o -> tkind c = cl -> skips1 a -> skips0 rest -> skips0 (l :: a ++ c :: rest).
Proof.
  intros Hp Hl Hc Ha Hrest search st r Hs. cbn [app split_toks]. rewrite Hl, <- app_assoc.
  assert (E : kind_eqb search o = false) by (destruct (search_not_open _ Hs); destruct Hp as [[-> _]|[-> _]]; assumption).
  destruct Hp as [[-> ->]|[-> ->]]; rewrite E; cbn [kind_eqb kind_code Z.eqb Pos.eqb orb];
    rewrite Ha by (exact Hs || discriminate); cbn [app split_toks]; rewrite Hc;
    cbn [kind_eqb kind_code Z.eqb Pos.eqb orb pop_until]; rewrite Hrest by exact Hs;
    destruct (split_toks search st r); unfold pre; cbn [fst snd app]; rewrite <- app_assoc; reflexivity.
Qed.

Lemma skips0_cons t ts : plain_kind (tkind t) -> skips0 ts -> skips0 (t :: ts).
Proof. intros Ht Hts. change (t :: ts) with ([t] ++ ts). apply skips0_app; [apply skips0_tok; exact Ht|exact Hts]. Qed.

Definition plain (k : kind) : bool :=
  match k with KLParen | KLBracket | KRParen | KRBracket | KPipe => false | _ => true end.

Lemma plain_kind_of k : plain k = true -> plain_kind k.
Proof. intros H. unfold plain_kind. repeat split; intros ->; discriminate H. Qed.

Lemma plain_prec op : (0 <= op_prec op)%Z -> plain op = true.
Proof. intros H. destruct op; try reflexivity; exfalso; apply H; reflexivity. Qed.

Lemma skips0_kind k t ts : tkind t = k -> plain k = true -> skips0 ts -> skips0 (t :: ts).
Proof. intros <- H. apply skips0_cons, plain_kind_of, H. Qed.

Lemma skips0_is_tok k sp t ts : is_tok k sp t -> plain k = true -> skips0 ts -> skips0 (t :: ts).
Proof. intros [H _]. exact (skips0_kind k t ts H). Qed.

Lemma skips0_kw ws sp t ts : kw_tok ws sp t -> skips0 ts -> skips0 (t :: ts).
Proof. intros [H _]. exact (skips0_kind _ t ts H eq_refl). Qed.

Lemma skips0_ident i t ts : ident_tok i t -> skips0 ts -> skips0 (t :: ts).
Proof. intros [H _]. apply (skips0_kind _ t ts H). destruct (iquoted i); reflexivity. Qed.

Lemma skips0_paren lsp rsp l a c rest : is_tok KLParen lsp l -> is_tok KRParen rsp c -> skips1 a -> skips0 rest -> skips0 (l :: a ++ c :: rest).
Proof. intros [Hl _] [Hc _]. apply (skips0_group KLParen KRParen); auto. Qed.

Lemma skips0_bracket lsp rsp l a c rest : is_tok KLBracket lsp l -> is_tok KRBracket rsp c -> skips1 a -> skips0 rest -> skips0 (l :: a ++ c :: rest).
Proof. intros [Hl _] [Hc _]. apply (skips0_group KLBracket KRBracket); auto. Qed.

(** Each constructor's token list is made of sublists that skip, bracketed groups and single plain
    tokens: the database [skips] has one hint per piece; [nocore] as for [kinds] (ParserReject.v). *)
Create HintDb skips discriminated.
#[export] Hint Resolve skips0_nil skips0_app skips0_kind skips0_is_tok skips0_kw skips0_ident skips0_paren skips0_bracket
  skips0_1 plain_prec : skips.
#[export] Hint Extern 0 (_ = true) => reflexivity : skips.
Ltac skips := intros; split_alts; eauto 6 with skips nocore.

Lemma qual_skips ps ts : toks_qual ps ts -> skips0 ts.
Proof. induction 1; skips. Qed.
#[export] Hint Resolve qual_skips : skips.

Lemma expr_skips : (forall e ts, toks_expr e ts -> skips0 ts) /\ (forall l ts, toks_list l ts -> skips0 ts) /\ (forall l ts, toks_args l ts -> skips0 ts).
Proof. apply toks_expr_mutind; skips. Qed.

Definition expr_skips0 := proj1 expr_skips.
Definition list_skips0 := proj1 (proj2 expr_skips).
Definition args_skips0 := proj2 (proj2 expr_skips).
#[export] Hint Resolve expr_skips0 list_skips0 : skips.

Lemma sep_skips {A} (P : A -> list token -> Prop) l ts : toks_sep P l ts -> (forall a ts, P a ts -> skips0 ts) -> skips0 ts.
Proof. intros H HP. apply (sep_whole P skips0) with (l := l); [skips|exact HP|exact H]. Qed.
#[export] Hint Resolve sep_skips : skips.

Lemma dir_skips asc asp dflt ts : toks_dir asc asp dflt ts -> skips0 ts.
Proof. intros []; skips. Qed.

Lemma nulls_skips dflt nf nsp ts : toks_nulls dflt nf nsp ts -> skips0 ts.
Proof. intros []; skips. Qed.
#[export] Hint Resolve dir_skips nulls_skips : skips.

Lemma sort_term_skips t ts : toks_sort_term t ts -> skips0 ts.
Proof. intros []; skips. Qed.

Lemma ext_col_skips c ts : toks_ext_col c ts -> skips0 ts.
Proof. intros []; skips. Qed.

Lemma proj_col_skips c ts : toks_proj_col c ts -> skips0 ts.
Proof. intros []; skips. Qed.

Lemma render_prop_skips c ts : toks_render_prop c ts -> skips0 ts.
Proof. intros []; skips. Qed.
#[export] Hint Resolve sort_term_skips ext_col_skips proj_col_skips render_prop_skips : skips.

Lemma ext_cols_skips l ts : toks_sep toks_ext_col l ts -> skips0 ts.
Proof. skips. Qed.
#[export] Hint Resolve ext_cols_skips : skips.

Lemma summ_skips cols bsp gs ts : toks_summ cols bsp gs ts -> skips0 ts.
Proof. intros []; skips. Qed.

Lemma join_kind_skips ksp asp fl ts : toks_join_kind ksp asp fl ts -> skips0 ts.
Proof. intros []; skips. Qed.

Lemma render_with_skips wsp lsp props rsp ts : toks_render_with wsp lsp props rsp ts -> skips0 ts.
Proof. intros []; skips. Qed.
#[export] Hint Resolve summ_skips join_kind_skips render_with_skips : skips.

(** an operator without its leading pipe has no top-level pipe; a whole operator list may stand
    inside the parentheses of a join ([skips1]) *)
Definition op_body_skips (o : operator) (ts : list token) : Prop :=
  exists p body, ts = p :: body /\ tkind p = KPipe /\ skips0 body.

Lemma op_body_intro o psp p body : is_tok KPipe psp p -> skips0 body -> op_body_skips o (p :: body).
Proof. intros [Hp _] Hb. exists p, body. auto. Qed.

Lemma ops_cons_skips o to tos : op_body_skips o to -> skips1 tos -> skips1 (to ++ tos).
Proof.
  intros (p & body & -> & Hp & Hb) Hos. apply skips1_app; [|exact Hos].
  change (p :: body) with ([p] ++ body). apply skips1_app; [apply skips1_pipe; exact Hp|apply skips0_1; exact Hb].
Qed.

Lemma op_skips : (forall o ts, toks_op o ts -> op_body_skips o ts) /\ (forall l ts, toks_ops l ts -> skips1 ts).
Proof.
  apply toks_op_mutind; intros; [..|apply skips1_nil|eapply ops_cons_skips; eassumption];
    (eapply op_body_intro; [eassumption|]); try (skips; fail).
  (* join: inside the parentheses the pipes of the right-hand operators are at depth 1 *)
  eapply skips0_kw; [eassumption|]. apply skips0_app; [skips|].
  eapply skips0_paren; [eassumption|eassumption| |skips].
  change (tsrc :: tro) with ([tsrc] ++ tro). apply skips1_app; [apply skips0_1; skips|assumption].
Qed.

Lemma split_found S k ts c rest : skips_for S ts -> S k -> search_ok k -> tkind c = k ->
  split k (ts ++ c :: rest) = (ts, c :: rest).
Proof.
  intros Hts HS Hk Hc. unfold split. rewrite Hts by exact HS. cbn [split_toks]. rewrite Hc.
  destruct Hk as [->|[->| ->]]; cbn [kind_eqb kind_code Z.eqb Pos.eqb orb]; unfold pre; cbn [fst snd]; rewrite app_nil_r; reflexivity.
Qed.

Lemma closer_ok k : k = KRParen \/ k = KRBracket -> search_ok k.
Proof. unfold search_ok. tauto. Qed.

Lemma split_at_closer k ts c rest : (k = KRParen \/ k = KRBracket) -> skips0 ts -> tkind c = k ->
  split k (ts ++ c :: rest) = (ts, c :: rest).
Proof. intros Hk Hts. apply (split_found search_ok); auto using closer_ok. Qed.

Lemma split_to_end k ts : search_ok k -> skips0 ts -> split k ts = (ts, []).
Proof.
  intros Hk Hts. unfold split. rewrite <- (app_nil_r ts) at 1. rewrite Hts by exact Hk. cbn [split_toks]. unfold pre. cbn [fst snd].
  rewrite app_nil_r. reflexivity.
Qed.

Lemma split_at_pipe ts p rest : skips0 ts -> tkind p = KPipe -> split KPipe (ts ++ p :: rest) = (ts, p :: rest).
Proof. intros Hts. apply (split_found search_ok); unfold search_ok; tauto. Qed.

(** operator lists have their pipes at depth 0, so only the bracket searches pass over them *)
Definition skipsP (ts : list token) : Prop :=
  forall search st r, (search = KRParen \/ search = KRBracket) -> split_toks search st (ts ++ r) = pre ts (split_toks search st r).

Lemma skips0_P ts : skips0 ts -> skipsP ts.
Proof. apply skips_for_sub, closer_ok. Qed.

Definition skipsP_app a b : skipsP a -> skipsP b -> skipsP (a ++ b) := skips_for_app _ a b.

Lemma ops_skipsP l ts : toks_ops l ts -> skipsP ts.
Proof.
  induction 1 as [|o to os tos Ho _ IH]; [apply skips_for_nil|].
  apply skipsP_app; [|exact IH]. destruct (proj1 op_skips _ _ Ho) as (p & body & -> & Hp & Hb).
  change (p :: body) with ([p] ++ body). apply skipsP_app; [|apply skips0_P; exact Hb].
  intros search st r Hs. apply pipe_passed; [exact Hp|]. left. destruct Hs as [->| ->]; discriminate.
Qed.

Lemma split_at_closerP k ts c rest : (k = KRParen \/ k = KRBracket) -> skipsP ts -> tkind c = k ->
  split k (ts ++ c :: rest) = (ts, c :: rest).
Proof. intros Hk Hts. apply (split_found _ k ts c rest Hts Hk), closer_ok, Hk. Qed.

Lemma ops_head l ts : toks_ops l ts -> (l = [] /\ ts = []) \/ exists p r, ts = p :: r /\ tkind p = KPipe.
Proof.
  intros H. destruct H as [|o to os tos Ho Hos]; [left; split; reflexivity|right].
  destruct (proj1 op_skips _ _ Ho) as (p & body & -> & Hp & _). exists p, (body ++ tos). split; [reflexivity|exact Hp].
Qed.
