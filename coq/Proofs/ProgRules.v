(** * A whole program compiles exactly when it obeys the documented rules (property C13, Props/C13.v).
    Lifts [wx_ok_iff_rules] (expressions) through the let/query loop, splitQueries and the SELECT
    writer: at whatever depth an operator sits, its expressions are written in the right mode
    exactly once, so Compile fails exactly when one of them breaks a rule, a join has an unknown
    kind, or there is not exactly one query. *)
From PQL Require Import Model.Trans Spec.Rules Spec.FlattenStmt Proofs.ExprInd Proofs.WriterEqns
  Proofs.TableFacts Proofs.RulesFacts Proofs.SplitSteps Proofs.PipelineFacts Proofs.ParserSound
  Proofs.ParserSoundStmt Proofs.ParserReject.
From Coq Require Import String.
Local Open Scope list_scope.
Local Open Scope nat_scope.
Local Notation length := List.length (only parsing).

(** trees the parser can build *)
Definition wf_term (t : sort_term) : bool := wf_expr (st_x t).
Definition wf_col (c : ext_col) : bool := wf_expr (ec_x c).
Definition wf_proj (c : proj_col) : bool := match pc_x c with Some x => wf_expr x | None => true end.

Fixpoint wf_op (o : operator) : bool :=
  match o with
  | OCount _ _ | OAs _ _ _ | ORender _ _ _ _ _ _ _ => true
  | OWhere _ _ x => wf_expr x
  | OSort _ _ ts => forallb wf_term ts
  | OTake _ _ n => wf_expr n
  | OTop _ _ n _ c => wf_expr n && wf_term c
  | OProject _ _ cols => forallb wf_proj cols
  | OExtend _ _ cols => forallb wf_col cols
  | OSummarize _ _ cols _ gs => forallb wf_col cols && forallb wf_col gs
  | OJoin _ _ _ _ _ _ _ rops _ _ conds => forallb wf_op rops && forallb wf_expr conds
  end.

Fixpoint wf_prog (ss : list stmt) : bool :=
  match ss with
  | [] => true
  | SLet _ _ _ x :: r => wf_expr x && wf_prog r
  | STab t :: r => forallb wf_op (tops t) && wf_prog r
  end.

Section Prog.
Variable source : str.
Variable sc : scope.
Let b := bnd sc.
Let c := mkCtx sc ModeDefault.

Fixpoint jrules (o : operator) : bool :=
  match o with
  | OJoin _ _ _ _ fl _ _ rops _ _ conds => forallb jrules rops && join_kind_ok fl && forallb (cond_rules b) conds
  | _ => true
  end.

Fixpoint erules (o : operator) : bool :=
  match o with
  | OCount _ _ | OAs _ _ _ | ORender _ _ _ _ _ _ _ => true
  | OWhere _ _ x => expr_rules b RDefault x
  | OSort _ _ ts => forallb (term_rules b) ts
  | OTake _ _ n => expr_rules b RDefault n
  | OTop _ _ n _ t => expr_rules b RDefault n && term_rules b t
  | OProject _ _ cols => forallb (proj_rules b) cols
  | OExtend _ _ cols => forallb (col_rules b) cols
  | OSummarize _ _ cols _ gs => forallb (col_rules b) cols && forallb (col_rules b) gs
  | OJoin _ _ _ _ _ _ _ rops _ _ _ => forallb erules rops
  end.

Lemma forallb_and {A} (p q : A -> bool) l : forallb (fun x => p x && q x) l = forallb p l && forallb q l.
Proof.
  induction l as [|a r IH]; cbn [forallb]; [reflexivity|]. rewrite IH.
  destruct (p a), (q a), (forallb p r), (forallb q r); reflexivity.
Qed.

Lemma op_rules_split o : op_rules b o = jrules o && erules o.
Proof.
  induction o using operator_ind'.
  - destruct o; try discriminate; cbn [op_rules jrules erules andb]; reflexivity.
  - cbn [op_rules jrules erules]. rewrite (forallb_ext_in _ (fun x => jrules x && erules x) rops H), forallb_and.
    destruct (join_kind_ok fl), (forallb jrules rops), (forallb erules rops), (forallb (cond_rules b) conds); reflexivity.
Qed.

(** what the SELECT writer checks of a subquery *)
Definition wrules (o : operator) : bool :=
  match o with
  | OWhere _ _ x => expr_rules b RDefault x
  | OProject _ _ cols => forallb (proj_rules b) cols
  | OExtend _ _ cols => forallb (col_rules b) cols
  | OSummarize _ _ cols _ gs => forallb (col_rules b) cols && forallb (col_rules b) gs
  | _ => true
  end.

Definition subq_rules (s : subq) : bool :=
  (match sq_op s with Some o => wrules o | None => true end)
  && (match sq_sort s with Some ts => forallb (term_rules b) ts | None => true end)
  && (match sq_take s with Some n => expr_rules b RDefault n | None => true end).

Definition wfq (s : subq) : bool :=
  (match sq_op s with Some o => wf_op o | None => true end)
  && (match sq_sort s with Some ts => forallb wf_term ts | None => true end)
  && (match sq_take s with Some n => wf_expr n | None => true end).

Lemma wexpr_rules e : wf_expr e = true -> is_ok (wexpr c e) = expr_rules b RDefault e.
Proof. intros H. unfold wexpr. rewrite (wx_ok_iff_rules c e H WPlain). reflexivity. Qed.

Lemma is_ok_ext_cols cols : forallb wf_col cols = true -> is_ok (write_ext_cols source c cols) = forallb (col_rules b) cols.
Proof.
  unfold write_ext_cols. apply is_ok_map_seq, Forall_forall. intros col _ Hcol.
  rewrite is_ok_bind_total by (intros ?; reflexivity). apply wexpr_rules, Hcol.
Qed.

Lemma is_ok_sort terms : forallb wf_term terms = true -> is_ok (write_sort c terms) = forallb (term_rules b) terms.
Proof.
  unfold write_sort. rewrite is_ok_bind_total by (intros ?; reflexivity). apply is_ok_map_seq, Forall_forall. intros t _ Ht.
  rewrite is_ok_bind_total by (intros ?; reflexivity). apply wexpr_rules, Ht.
Qed.

Lemma is_ok_bind3 {A B C D} (r1 : res A) (r2 : res B) (r3 : res C) (k : A -> B -> C -> res D) :
  (forall x y z, is_ok (k x y z) = true) ->
  is_ok (bind r1 (fun x => bind r2 (fun y => bind r3 (k x y)))) = is_ok r1 && is_ok r2 && is_ok r3.
Proof. intros H. destruct r1, r2, r3; cbn; try reflexivity. apply H. Qed.

Lemma write_subq_rules s : wfq s = true -> is_ok (write_subq source c s) = subq_rules s.
Proof.
  intros Hwf. unfold wfq in Hwf. apply andb_prop in Hwf as [Hwf Htake]. apply andb_prop in Hwf as [Hop Hsort].
  unfold write_subq, subq_rules. rewrite is_ok_bind3 by (intros; reflexivity).
  apply (f_equal2 andb); [apply (f_equal2 andb)|].
  - destruct (sq_op s) as [o|]; [|reflexivity]. destruct o; cbn [wrules wf_op] in *; try reflexivity.
    + rewrite is_ok_bind_total by (intros ?; reflexivity). apply wexpr_rules. exact Hop.
    + rewrite is_ok_bind_total by (intros ?; reflexivity). revert Hop. apply is_ok_map_seq, Forall_forall. intros col _ Hcol.
      rewrite is_ok_bind_total by (intros ?; reflexivity).
      unfold proj_rules, wf_proj in *. destruct (pc_x col); apply wexpr_rules; [exact Hcol|reflexivity].
    + rewrite is_ok_bind_total by (intros ?; reflexivity). apply is_ok_ext_cols. exact Hop.
    + apply andb_prop in Hop as [Hc Hg]. rewrite is_ok_bind3 by (intros; reflexivity).
      rewrite (is_ok_ext_cols _ Hg), (is_ok_ext_cols _ Hc).
      (* the GROUP BY keys are the same expressions again *)
      replace (is_ok match groupby with [] => Ok [] | _ => _ end) with (forallb (col_rules b) groupby).
      * destruct (forallb (col_rules b) groupby), (forallb (col_rules b) cols); reflexivity.
      * destruct groupby as [|g0 gr]; [reflexivity|]. rewrite is_ok_bind_total by (intros ?; reflexivity).
        symmetry. revert Hg. apply is_ok_map_seq, Forall_forall. intros col _. apply wexpr_rules.
  - destruct (sq_sort s); [apply is_ok_sort; exact Hsort|reflexivity].
  - destruct (sq_take s); [|reflexivity]. rewrite is_ok_bind_total by (intros ?; reflexivity). apply wexpr_rules. exact Htake.
Qed.

Lemma write_ctes_rules l : forallb wfq l = true ->
  is_ok (write_ctes source c l) = forallb subq_rules l.
Proof.
  induction l as [|s r IH]; intros Hwf; cbn [write_ctes forallb] in *; [reflexivity|]. apply andb_prop in Hwf as [Hs Hr].
  rewrite is_ok_bind2 by (intros ? ?; reflexivity). rewrite (write_subq_rules s Hs), (IH Hr). reflexivity.
Qed.

Lemma forallb_snoc {A} (p : A -> bool) l a : forallb p (l ++ [a]) = forallb p l && p a.
Proof. rewrite forallb_app. cbn [forallb]. rewrite Bool.andb_true_r. reflexivity. Qed.

Lemma fresh_ok dst ds src : wfq (chain_subquery dst ds src) = true /\ subq_rules (chain_subquery dst ds src) = true.
Proof. split; reflexivity. Qed.

Lemma is_ok_bind_const {A B} (r : res A) (k : A -> res B) (K : bool) : (forall a, is_ok (k a) = K) -> is_ok (bind r k) = is_ok r && K.
Proof. intros H. destruct r; cbn; [apply H|reflexivity]. Qed.

Lemma join_kind_check (fl : option ident) : is_ok (flavor_ok fl) = join_kind_ok fl.
Proof.
  unfold flavor_ok, flavor_name. destruct fl as [f|]; cbn [join_kind_ok]; [|reflexivity].
  unfold mem, join_kinds. cbn [existsb].
  change (L "inner") with w_inner. change (L "innerunique") with w_innerunique. change (L "leftouter") with w_leftouter.
  destruct (str_eqb (iname f) w_inner), (str_eqb (iname f) w_innerunique), (str_eqb (iname f) w_leftouter); reflexivity.
Qed.

Lemma bare_name_rules y : match bare_name sc y with Some _ => is_bare_name b y = true | None => is_bare_name b y = false end.
Proof.
  unfold bare_name, is_bare_name. destruct y as [ps| | | | | | |]; try reflexivity.
  destruct ps as [|p [|p2 r]]; try reflexivity.
  destruct (iquoted p); cbn [negb andb]; [reflexivity|].
  rewrite <- assoc_builtin. destruct (assoc_str builtin_idents (iname p)); cbn [negb andb]; [reflexivity|].
  unfold b, bnd. destruct (scope_get sc (iname p)); reflexivity.
Qed.

Lemma rewrite_cond_rules y : expr_rules b RJoin (rewrite_simple_cond sc y) = cond_rules b y.
Proof.
  unfold rewrite_simple_cond, cond_rules. pose proof (bare_name_rules y) as H.
  destruct (bare_name sc y) as [p|]; rewrite H; [reflexivity|reflexivity].
Qed.

Lemma rewrite_cond_wf y : wf_expr y = true -> wf_expr (rewrite_simple_cond sc y) = true.
Proof. intros H. unfold rewrite_simple_cond. destruct (bare_name sc y); [reflexivity|exact H]. Qed.

Lemma build_cond_spec conds : forallb wf_expr conds = true ->
  wf_expr (build_join_cond sc conds) = true /\ expr_rules b RJoin (build_join_cond sc conds) = forallb (cond_rules b) conds.
Proof.
  intros Hwf. split.
  - apply (build_join_cond_ind sc (fun e => wf_expr e = true)); [reflexivity| |].
    + intros x y Hx Hy. cbn [wf_expr]. rewrite Hx, Hy. reflexivity.
    + apply Forall_forall. intros y Hy. apply rewrite_cond_wf. rewrite forallb_forall in Hwf. exact (Hwf y Hy).
  - apply build_join_cond_forallb; [|reflexivity|apply rewrite_cond_rules].
    cbn [expr_rules iquoted negb andb iname]. destruct (b w_true || mem w_true r_consts); reflexivity.
Qed.

Definition Spec (o : operator) : Prop := forall ds src dst, wf_op o = true -> forallb wfq dst = true ->
  is_ok (split_op sc ds src dst o) = jrules o /\
  forall dst', split_op sc ds src dst o = Ok dst' ->
    forallb wfq dst' = true /\ forallb subq_rules dst' = forallb subq_rules dst && erules o.

(** the subquery an operator lands on is checked for what it had, and for the operator's own expressions *)
Lemma decorate_wfq o s : is_join o = false -> wf_op o = true -> wfq s = true -> wfq (decorate o s) = true.
Proof.
  intros Hj Ho Hs. unfold wfq in *. apply andb_prop in Hs as [Hs H3]. apply andb_prop in Hs as [H1 H2].
  destruct o; try discriminate Hj; cbn [decorate sq_op sq_sort sq_take wf_op forallb] in *; rewrite ?Ho, ?H1, ?H2, ?H3; try reflexivity.
  apply andb_prop in Ho as [Hn Hc]. rewrite Hn, Hc. reflexivity.
Qed.

Lemma rules_on_fresh o nm src : is_join o = false -> subq_rules (decorate o (mkSubq nm src None None None)) = erules o.
Proof.
  intros Hj. unfold subq_rules.
  destruct o; try discriminate Hj; cbn [decorate sq_op sq_sort sq_take wrules erules forallb andb]; rewrite ?Bool.andb_true_r; try reflexivity.
  apply Bool.andb_comm.
Qed.

Lemma rules_on_last o st s : lands_on_last o st = true -> attachable o s -> subq_rules (decorate o s) = subq_rules s && erules o.
Proof.
  intros Hl (_ & Ht & Hs). unfold subq_rules.
  destruct o; try discriminate Hl; cbn [decorate sq_op sq_sort sq_take erules forallb]; rewrite Ht, ?Hs;
    destruct (match sq_op s with Some o => wrules o | None => true end); cbn [andb]; rewrite ?Bool.andb_true_r; try reflexivity.
  apply Bool.andb_comm.
Qed.

Lemma spec_plain o : is_join o = false -> Spec o.
Proof.
  intros Hj ds src dst Hwf Hdst. rewrite (split_op_plain _ _ _ _ _ Hj).
  split; [destruct o; try discriminate Hj; reflexivity|]. intros dst' [= <-].
  destruct (lands_on_last o (state_of dst ds)) eqn:El.
  - destruct (lands_on_last_spec _ _ _ El) as (init & s & -> & _ & Ha). rewrite set_last_snoc, !forallb_snoc in *.
    apply andb_prop in Hdst as [Hi Hs]. rewrite Hi, (decorate_wfq o s Hj Hwf Hs), (rules_on_last _ _ _ El Ha), Bool.andb_assoc. split; reflexivity.
  - rewrite chain_subquery_eq, !forallb_snoc, Hdst, (decorate_wfq o (mkSubq _ _ None None None) Hj Hwf eq_refl), (rules_on_fresh o _ _ Hj). split; reflexivity.
Qed.

Lemma spec_fold ops : Forall Spec ops -> forall ds src dst, forallb wf_op ops = true -> forallb wfq dst = true ->
  is_ok (fold_res (split_op sc ds src) ops dst) = forallb jrules ops /\
  forall dst', fold_res (split_op sc ds src) ops dst = Ok dst' ->
    forallb wfq dst' = true /\ forallb subq_rules dst' = forallb subq_rules dst && forallb erules ops.
Proof.
  induction 1 as [|o r Ho _ IH]; intros ds src dst Hwf Hdst; cbn [fold_res forallb] in *.
  - split; [reflexivity|]. intros dst' [= <-]. rewrite Bool.andb_true_r. split; [exact Hdst|reflexivity].
  - apply andb_prop in Hwf as [Hwo Hwr]. destruct (Ho ds src dst Hwo Hdst) as [HA HB].
    destruct (split_op sc ds src dst o) as [d1|p] eqn:E; cbn [bind is_ok] in *.
    + destruct (HB d1 eq_refl) as [W1 R1]. destruct (IH ds src d1 Hwr W1) as [HA2 HB2]. split.
      * rewrite HA2, <- HA. reflexivity.
      * intros dst' Hd. destruct (HB2 dst' Hd) as [W2 R2]. split; [exact W2|]. rewrite R2, R1, Bool.andb_assoc. reflexivity.
    + split; [rewrite <- HA; reflexivity|]. intros dst' Hd. discriminate Hd.
Qed.

Lemma ensure_one_rules ds src l : forallb wfq l = true ->
  forallb wfq (ensure_one ds src l) = true /\ forallb subq_rules (ensure_one ds src l) = forallb subq_rules l.
Proof.
  intros H. unfold ensure_one. destruct (Nat.eqb _ _); [|split; [exact H|reflexivity]].
  rewrite chain_subquery_eq, !forallb_snoc, H. split; [reflexivity|apply Bool.andb_true_r].
Qed.

Lemma spec_join p k ks ka fl lp rsrc rops rp on conds : Forall Spec rops -> Spec (OJoin p k ks ka fl lp rsrc rops rp on conds).
Proof.
  intros Hall ds src dst Hwf Hdst. cbn [wf_op] in Hwf. apply andb_prop in Hwf as [Hwr Hwc].
  rewrite split_op_join. cbn [jrules erules].
  destruct (spec_fold rops Hall (length dst) rsrc dst Hwr Hdst) as [HA HB].
  destruct (build_cond_spec conds Hwc) as [Wc Rc].
  pose proof (wx_ok_iff_rules (mkCtx sc ModeJoin) (build_join_cond sc conds) Wc WPlain) as Hcond. cbn [c_scope c_mode rmode_of] in Hcond.
  fold b in Hcond. rewrite Rc in Hcond. unfold wexpr.
  split.
  - rewrite (is_ok_bind_const _ _ (join_kind_ok fl && forallb (cond_rules b) conds)).
    + rewrite HA, Bool.andb_assoc. reflexivity.
    + intros d1. rewrite (is_ok_bind_const _ _ (forallb (cond_rules b) conds)); [rewrite join_kind_check; reflexivity|].
      intros outer. rewrite is_ok_bind_total by (intros ?; reflexivity). exact Hcond.
  - intros dst' Hd. apply bind_ok in Hd as (d1 & Hd1 & Hd). apply bind_ok in Hd as (outer & _ & Hd). apply bind_ok in Hd as (cond & _ & Hd).
    injection Hd as <-. destruct (HB d1 Hd1) as [W1 R1]. destruct (ensure_one_rules (length dst) rsrc d1 W1) as [W2 R2].
    rewrite !forallb_snoc, W2, R2, R1. split; [reflexivity|apply Bool.andb_true_r].
Qed.

Theorem spec_all o : Spec o.
Proof. induction o using operator_ind'; [apply spec_plain; assumption|apply spec_join; assumption]. Qed.

Lemma rev_nonempty {A} (l : list A) : l <> [] -> exists q r, rev l = q :: r.
Proof. intros H. destruct (rev l) as [|q r] eqn:E; [|eexists _, _; reflexivity]. apply (f_equal (@rev A)) in E. rewrite rev_involutive in E. contradiction. Qed.

Lemma forallb_rev {A} (p : A -> bool) l : forallb p (rev l) = forallb p l.
Proof. induction l as [|a r IH]; cbn [rev forallb]; [reflexivity|]. rewrite forallb_snoc, IH. apply Bool.andb_comm. Qed.

Theorem query_rules t : forallb wf_op (tops t) = true -> is_ok (write_query source sc t) = forallb (op_rules b) (tops t).
Proof.
  unfold write_query. fold c.
  intros Hwf. rewrite split_queries_eq. cbn [length].
  assert (Hall : Forall Spec (tops t)) by (apply Forall_forall; intros o _; apply spec_all).
  destruct (spec_fold (tops t) Hall 0 (tsrc t) [] Hwf eq_refl) as [HA HB].
  rewrite (forallb_ext_in _ (fun o => jrules o && erules o) (tops t)) by (apply Forall_forall; intros o _; apply op_rules_split).
  rewrite forallb_and.
  destruct (fold_res (split_op sc 0 (tsrc t)) (tops t) []) as [d1|p] eqn:E; cbn [bind is_ok] in *; [|rewrite <- HA; reflexivity].
  destruct (HB d1 eq_refl) as [W1 R1]. cbn [forallb andb] in R1. rewrite <- HA, <- R1. cbn [andb].
  destruct (ensure_one_rules 0 (tsrc t) d1 W1) as [Ws Rs].
  destruct (rev_nonempty _ (ensure_one_nonempty (tsrc t) d1)) as (q & rctes & Er). rewrite Er. cbn zeta.
  assert (Wrev : forallb wfq (q :: rctes) = true) by (rewrite <- Er, forallb_rev; exact Ws).
  assert (Rrev : forallb subq_rules (q :: rctes) = forallb subq_rules d1) by (rewrite <- Er, forallb_rev; exact Rs).
  cbn [forallb] in Wrev, Rrev. apply andb_prop in Wrev as [Wq Wr].
  rewrite is_ok_bind2 by (intros ? ?; reflexivity).
  rewrite write_ctes_rules by (rewrite forallb_rev; exact Wr). rewrite forallb_rev.
  rewrite (write_subq_rules q Wq). rewrite <- Rrev. apply Bool.andb_comm.
Qed.

End Prog.

Lemma op_rules_ext b1 b2 : (forall n, b1 n = b2 n) -> forall o, op_rules b1 o = op_rules b2 o.
Proof.
  intros Hb. induction o using operator_ind'.
  - assert (Ht : forall l, forallb (term_rules b1) l = forallb (term_rules b2) l).
    { intros l. apply forallb_ext_in, Forall_forall. intros t _. unfold term_rules. apply expr_rules_ext. exact Hb. }
    assert (Hc : forall l, forallb (col_rules b1) l = forallb (col_rules b2) l).
    { intros l. apply forallb_ext_in, Forall_forall. intros t _. unfold col_rules. apply expr_rules_ext. exact Hb. }
    assert (Hp : forall l, forallb (proj_rules b1) l = forallb (proj_rules b2) l).
    { intros l. apply forallb_ext_in, Forall_forall. intros t _. unfold proj_rules. destruct (pc_x t); apply expr_rules_ext; exact Hb. }
    destruct o; try discriminate; cbn [op_rules]; unfold term_rules in *; rewrite ?Ht, ?Hc, ?Hp, ?(expr_rules_ext b1 b2 RDefault Hb); reflexivity.
  - cbn [op_rules]. f_equal; [f_equal|].
    + apply forallb_ext_in. exact H.
    + apply forallb_ext_in. apply Forall_forall. intros e _. unfold cond_rules, is_bare_name.
      rewrite (expr_rules_ext b1 b2 _ Hb). destruct e as [[|p0 [|? ?]]| | | | | | |]; try reflexivity. rewrite Hb. reflexivity.
Qed.

Lemma prog_rules_ext ss : forall b1 b2 q, (forall n, b1 n = b2 n) -> prog_rules b1 q ss = prog_rules b2 q ss.
Proof.
  induction ss as [|s r IH]; intros b1 b2 q Hb; cbn [prog_rules].
  - destruct q; [|reflexivity]. apply forallb_ext_in. apply Forall_forall. intros o _. apply op_rules_ext. exact Hb.
  - destruct s as [kw name a x|t].
    + destruct q; [apply IH; exact Hb|]. rewrite (expr_rules_ext b1 b2 RLet Hb). f_equal. apply IH. intros n. rewrite Hb. reflexivity.
    + destruct q; [reflexivity|]. apply IH. exact Hb.
Qed.

Theorem compile_stmts_rules source ss : forall sc q, wf_prog ss = true ->
  (match q with Some t => forallb wf_op (tops t) | None => true end) = true ->
  is_ok (do st <- stmt_loop sc q ss; match snd st with None => Err None | Some t => write_query source (fst st) t end)
  = prog_rules (bnd sc) q ss.
Proof.
  induction ss as [|s r IH]; intros sc q Hwf Hq; cbn [stmt_loop prog_rules wf_prog] in *.
  - cbn [bind snd fst]. destruct q as [t|]; [|reflexivity]. apply query_rules. exact Hq.
  - destruct s as [kw name a x|t].
    + apply andb_prop in Hwf as [Hx Hr]. destruct q as [t0|]; [apply IH; assumption|].
      unfold woperand. pose proof (wx_ok_iff_rules (mkCtx sc ModeLet) x Hx WOperand) as Hw. cbn [c_scope c_mode rmode_of] in Hw.
      destruct (wx (mkCtx sc ModeLet) WOperand x) as [v|p]; cbn [is_ok bind] in *; rewrite <- Hw; cbn [andb]; [|reflexivity].
      rewrite (IH _ None Hr eq_refl). apply prog_rules_ext, bnd_cons.
    + apply andb_prop in Hwf as [Ht Hr]. destruct q as [t0|]; [reflexivity|]. apply IH; assumption.
Qed.

Theorem compile_program_rules source params ss : wf_prog ss = true ->
  is_ok (compile_stmts source params ss) = prog_rules (bnd (map (fun kv => (fst kv, [PRaw (snd kv)])) params)) None ss.
Proof. intros Hwf. rewrite compile_stmts_eq. apply (compile_stmts_rules source ss _ None Hwf eq_refl). Qed.

(** every tree the parser returns is of the shape assumed above *)
Lemma toks_wf_expr : (forall e ts, toks_expr e ts -> wf_expr e = true) /\ (forall l ts, toks_list l ts -> forallb wf_expr l = true) /\ (forall l ts, toks_args l ts -> forallb wf_expr l = true).
Proof.
  apply toks_expr_mutind; intros; cbn [wf_expr forallb]; try reflexivity; try assumption;
    repeat match goal with H : _ = true |- _ => rewrite H end; try reflexivity.
  - rewrite (binop_sql_total op) by assumption.
    assert (E : kind_eqb op KIn = false) by (destruct (kind_eqb op KIn) eqn:E; [apply kind_eqb_eq in E; contradiction|reflexivity]).
    rewrite E. reflexivity.
Qed.

Lemma sep_forallb {A} (P : A -> list token -> Prop) (p : A -> bool) : (forall a ts, P a ts -> p a = true) ->
  forall l ts, toks_sep P l ts -> forallb p l = true.
Proof.
  intros HP l ts H. apply forallb_forall, Forall_forall.
  exact (sep_items P (fun _ => True) _ (fun _ _ _ _ => conj I I) (fun a ta Ha _ => HP a ta Ha) l ts H I).
Qed.

Lemma toks_wf_term t ts : toks_sort_term t ts -> wf_term t = true.
Proof. intros H. destruct H. unfold wf_term. cbn [st_x]. eapply (proj1 toks_wf_expr); eassumption. Qed.
Lemma toks_wf_col c ts : toks_ext_col c ts -> wf_col c = true.
Proof. intros H. destruct H; unfold wf_col; cbn [ec_x]; eapply (proj1 toks_wf_expr); eassumption. Qed.
Lemma toks_wf_proj c ts : toks_proj_col c ts -> wf_proj c = true.
Proof. intros H. destruct H; unfold wf_proj; cbn [pc_x]; [reflexivity|]. eapply (proj1 toks_wf_expr); eassumption. Qed.

Lemma toks_wf_op : (forall o ts, toks_op o ts -> wf_op o = true) /\ (forall l ts, toks_ops l ts -> forallb wf_op l = true).
Proof.
  apply toks_op_mutind; intros; cbn [wf_op forallb]; try reflexivity;
    repeat match goal with
    | H : toks_expr _ _ |- _ => apply (proj1 toks_wf_expr) in H
    | H : toks_list _ _ |- _ => apply (proj1 (proj2 toks_wf_expr)) in H
    | H : toks_sort_term _ _ |- _ => apply toks_wf_term in H
    | H : toks_sep toks_sort_term _ _ |- _ => apply (sep_forallb _ _ toks_wf_term) in H
    | H : toks_sep toks_ext_col _ _ |- _ => apply (sep_forallb _ _ toks_wf_col) in H
    | H : toks_sep toks_proj_col _ _ |- _ => apply (sep_forallb _ _ toks_wf_proj) in H
    end;
    repeat match goal with H : _ = true |- _ => rewrite H end; try reflexivity.
  - match goal with H : toks_summ _ _ _ _ |- _ => destruct H end;
      repeat match goal with H : toks_sep toks_ext_col _ _ |- _ => apply (sep_forallb _ _ toks_wf_col) in H; rewrite H end; reflexivity.
Qed.

Lemma toks_wf_prog ss ts : toks_prog ss ts -> wf_prog ss = true.
Proof.
  induction 1 as [|semi ss rest _ _ IH|s ts Hs|s ts semi ss rest Hs _ _ IH]; cbn [wf_prog]; try assumption; try reflexivity.
  - destruct Hs as [? ? ? ? ? ? ? ? ? ? ? Hx|t ts (a & b0 & -> & _ & Ho)]; cbn [wf_prog].
    + rewrite (proj1 toks_wf_expr _ _ Hx). reflexivity.
    + rewrite (proj2 toks_wf_op _ _ Ho). reflexivity.
  - destruct Hs as [? ? ? ? ? ? ? ? ? ? ? Hx|t ts (a & b0 & -> & _ & Ho)]; cbn [wf_prog].
    + rewrite (proj1 toks_wf_expr _ _ Hx). exact IH.
    + rewrite (proj2 toks_wf_op _ _ Ho). exact IH.
Qed.

(** C13: Compile succeeds exactly when the source parses and the program obeys the rules *)
Theorem compile_exact params s :
  (exists ps, compile params s = COk ps) <->
  (exists ss, parse s = ParseOk ss /\ prog_rules (bnd (map (fun kv => (fst kv, [PRaw (snd kv)])) params)) None ss = true).
Proof.
  unfold compile. split.
  - intros (ps & H). destruct (parse s) as [ss|e| |] eqn:Ep; try discriminate H.
    exists ss. split; [reflexivity|]. rewrite <- (compile_program_rules s params ss (toks_wf_prog _ _ (parse_sound _ _ Ep))).
    destruct (compile_stmts s params ss); [reflexivity|discriminate H].
  - intros (ss & Ep & Hr). rewrite Ep. rewrite <- (compile_program_rules s params ss (toks_wf_prog _ _ (parse_sound _ _ Ep))) in Hr.
    destruct (compile_stmts s params ss) as [ps|]; [exists ps; reflexivity|discriminate Hr].
Qed.
